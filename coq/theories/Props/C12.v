(* C12 - Built-in output checkers decide exactly their documented relation.  Property theorems only. *)
From PieV Require Import Model.Checkers Proofs.CheckersP.

Section C12.
Variables T E : Type.
Variable eqT : T -> T -> bool.
Variable eqE : E -> E -> bool.
Hypothesis eqT_spec : forall a b, eqT a b = true <-> a = b.
Hypothesis eqE_spec : forall a b, eqE a b = true <-> a = b.

(* for all payload types with decidable equality and all pairs of outputs: consistent (no inconsistency reported) exactly when
   the documented relation holds *)
Theorem C12_decides : forall o1 o2 : result T E,
  (equals_check T E eqT eqE o1 (equals_stamp T E o2) = false <-> o1 = o2) /\
  (ok_equals_check T E eqT o1 (ok_equals_stamp T E o2) = false <->
     match o1, o2 with Ok a, Ok b => a = b | Err _, Err _ => True | _, _ => False end) /\
  (err_equals_check T E eqE o1 (err_equals_stamp T E o2) = false <->
     match o1, o2 with Err a, Err b => a = b | Ok _, Ok _ => True | _, _ => False end) /\
  (result_check T E o1 (result_stamp T E o2) = false <->
     match o1, o2 with Ok _, Ok _ => True | Err _, Err _ => True | _, _ => False end) /\
  (always_check T E o1 (always_stamp T E o2) = false <-> True).
Proof.
  intros o1 o2.
  exact (conj (equals_decides T E eqT eqE eqT_spec eqE_spec o1 o2) (conj (ok_equals_decides T E eqT eqT_spec o1 o2)
        (conj (err_equals_decides T E eqE eqE_spec o1 o2) (conj (result_decides T E o1 o2) (always_decides T E o1 o2))))).
Qed.

Theorem C12_reflexive : forall c (o : result T E), inconsistent T E eqT eqE c o o = false.
Proof. exact (reflexive T E eqT eqE eqT_spec eqE_spec). Qed.
End C12.
Check C12_decides.
Check C12_reflexive : forall (T E : Type) (eqT : T -> T -> bool) (eqE : E -> E -> bool),
  (forall a b, eqT a b = true <-> a = b) -> (forall a b, eqE a b = true <-> a = b) ->
  forall c (o : result T E), inconsistent T E eqT eqE c o o = false.
Print Assumptions C12_decides.
Print Assumptions C12_reflexive.
