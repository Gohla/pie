(* C13 - File checkers detect exactly what they document; stamp routes agree.  Property theorems only.
   The operating system is modelled (FileRes.v); SHA-256 collision freeness is the explicit premise sha_inj. *)
From Coq Require Import List NArith.
From PieV Require Import Model.FileRes Proofs.FileResP.
Import ListNotations.
Open Scope N_scope.

Theorem C13_routes_agree_reader : forall (H : Type) (sha : bytes -> H) s,
  ex_stamp s = ex_stamp_reader (open_read s) /\ mo_stamp s = mo_stamp_reader (open_read s) /\
  ha_stamp H sha s = fst (ha_stamp_reader H sha s (open_read s)).
Proof. exact routes_agree_reader. Qed.
Print Assumptions C13_routes_agree_reader.

Theorem C13_routes_agree_writer : forall (H : Type) (sha : bytes -> H) s b now s',
  open_write s now = Some s' ->
  let f := write_bytes s' b now in
  ex_stamp_writer f = ex_stamp f /\ mo_stamp_writer f = mo_stamp f /\ ha_stamp_writer H sha f = ha_stamp H sha f.
Proof. exact routes_agree_writer. Qed.
Print Assumptions C13_routes_agree_writer.

Theorem C13_untouched_consistent : forall (H : Type) (sha : bytes -> H) (eqH : H -> H -> bool),
  (forall a b, eqH a b = true <-> a = b) -> forall s,
  ex_check s (ex_stamp s) = false /\ mo_check s (mo_stamp s) = false /\ ha_check H sha eqH s (ha_stamp H sha s) = false.
Proof. exact untouched_consistent. Qed.
Print Assumptions C13_untouched_consistent.

Theorem C13_exists_detects : forall s1 s2, ex_check s2 (ex_stamp s1) = true <-> p_exists s1 <> p_exists s2.
Proof. exact exists_decides. Qed.
Print Assumptions C13_exists_detects.
Theorem C13_modified_detects : forall s1 s2, mo_check s2 (mo_stamp s1) = true <-> p_modified s1 <> p_modified s2.
Proof. exact modified_decides. Qed.
Print Assumptions C13_modified_detects.
Theorem C13_hash_file_detects : forall (H : Type) (sha : bytes -> H) (eqH : H -> H -> bool),
  (forall a b, eqH a b = true <-> a = b) -> (forall a b, sha a = sha b -> a = b) ->
  forall c1 m1 c2 m2, ha_check H sha eqH (PFile c2 m2) (ha_stamp H sha (PFile c1 m1)) = true <-> c1 <> c2.
Proof. exact hash_file_detects. Qed.
Print Assumptions C13_hash_file_detects.
Theorem C13_hash_existence_detects : forall (H : Type) (sha : bytes -> H) (eqH : H -> H -> bool),
  (forall a b, eqH a b = true <-> a = b) -> forall s1 s2,
  p_exists s1 <> p_exists s2 -> ha_check H sha eqH s2 (ha_stamp H sha s1) = true.
Proof. exact hash_exists_detects. Qed.
Print Assumptions C13_hash_existence_detects.

Theorem C13_reader_rewound : forall (H : Type) (sha : bytes -> H) c m,
  reader_rest (snd (ha_stamp_reader H sha (PFile c m) (open_read (PFile c m)))) = c /\ reader_rest (open_read (PFile c m)) = c.
Proof. exact reader_rewound. Qed.
Print Assumptions C13_reader_rewound.

Theorem C13_open_write : forall s now,
  match s with PDir _ _ => open_write s now = None | _ => open_write s now = Some (PFile [] now) end.
Proof. exact open_write_spec. Qed.
Print Assumptions C13_open_write.

(* directories: a different set of entry names => inconsistent (names never contain NUL; each is NUL-terminated in the
   hashed stream since "fix: HashChecker::hash_directory terminates each entry name") *)
Theorem C13_hash_dir_detects : forall (H : Type) (sha : bytes -> H) (eqH : H -> H -> bool),
  (forall a b, eqH a b = true <-> a = b) -> (forall a b, sha a = sha b -> a = b) ->
  forall n1 m1 n2 m2, nul_free n1 -> nul_free n2 -> ~ (forall x, In x n1 <-> In x n2) ->
  ha_check H sha eqH (PDir n2 m2) (ha_stamp H sha (PDir n1 m1)) = true.
Proof. exact hash_dir_detects. Qed.
Print Assumptions C13_hash_dir_detects.

(* regression witness of the repaired defect: {"ba","a"} and {"b","aa"} now have different hashed streams *)
Example C13_dir_witness : dir_stream [[98; 97]; [97]] <> dir_stream [[98]; [97; 97]].
Proof. cbv. discriminate. Qed.
Print Assumptions C13_dir_witness.
