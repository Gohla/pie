(* C15 - Task and resource identity is (concrete type, value).  Property theorems only. *)
From Coq Require Import List NArith.
From PieV Require Import Model.Keys Proofs.KeysP.
Import ListNotations.
Open Scope N_scope.

(* two keys are the same exactly when type and value are equal *)
Theorem C15_eq_any : forall a b : key, eq_any a b = true <-> a = b.
Proof. exact eq_any_spec. Qed.
Print Assumptions C15_eq_any.

(* inserting a new key leaves every other key alone, even one that collides in the hash (same value, other type) *)
Theorem C15_insert : forall m k n k', klookup m k = None ->
  klookup (kinsert m k n) k' = if eq_any k k' then Some n else klookup m k'.
Proof. exact klookup_insert. Qed.
Print Assumptions C15_insert.

(* MAIN: for every sequence of get_or_create calls, two calls get the same node exactly when their keys have the same
   concrete type and compare equal -- whatever the hashes do *)
Theorem C15_lookup : forall ks i j ki kj ni nj,
  nth_error ks i = Some ki -> nth_error ks j = Some kj ->
  nth_error (assign ks) i = Some ni -> nth_error (assign ks) j = Some nj ->
  (ni = nj <-> ki = kj).
Proof. intros ks. unfold assign. apply assign_same_iff. apply KInv_init. Qed.
Check C15_lookup : forall ks i j ki kj ni nj,
  nth_error ks i = Some ki -> nth_error ks j = Some kj ->
  nth_error (assign ks) i = Some ni -> nth_error (assign ks) j = Some nj ->
  (ni = nj <-> ki = kj).
Print Assumptions C15_lookup.

(* non-vacuity: same value, different types, colliding hashes: different nodes; the same key again: the same node *)
Example C15_witness : assign [(1, 7); (2, 7); (1, 7); (3, 7); (2, 7)] = [0; 1; 0; 2; 1].
Proof. reflexivity. Qed.
Print Assumptions C15_witness.
