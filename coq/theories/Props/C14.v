(* C14 - Map resource gives read-your-writes with per-type isolation.  Property theorems only. *)
From Coq Require Import List ZArith Bool.
From PieV Require Import Model.MapRes Proofs.MapResP.
Import ListNotations.
Open Scope N_scope.

(* a read returns the abstract value and never changes any abstract value *)
Theorem C14_read : forall m kt k, fst (map_read m kt k) = lookup m kt k /\
  forall kt' k', lookup (snd (map_read m kt k)) kt' k' = lookup m kt' k'.
Proof. exact map_read_spec. Qed.
Print Assumptions C14_read.

(* latest value wins; other keys, and all keys of other key types, are untouched (writer insert and direct insert) *)
Theorem C14_insert : forall m kt k v kt' k',
  lookup (map_insert m kt k v) kt' k' = if N.eqb kt kt' && N.eqb k k' then Some v else lookup m kt' k'.
Proof. exact insert_lookup. Qed.
Print Assumptions C14_insert.
Theorem C14_remove : forall m kt k kt' k',
  lookup (map_remove m kt k) kt' k' = if N.eqb kt kt' && N.eqb k k' then None else lookup m kt' k'.
Proof. exact remove_lookup. Qed.
Print Assumptions C14_remove.

(* typed state for one resource type is invisible to and not replaced by an access for another resource type *)
Theorem C14_isolated : forall m r s r' s', r <> r' -> rs_get (snd (rs_get_or_set_default m r s)) r' s' = rs_get m r' s'.
Proof. exact typed_access_isolated. Qed.
Print Assumptions C14_isolated.
Theorem C14_set_get : forall m r s v, rs_get (rs_set m r s v) r s = Some v.
Proof. exact rs_get_set_same. Qed.
Print Assumptions C14_set_get.

(* the equality checker: all three stamping routes agree; consistent exactly when current = stamped *)
Theorem C14_routes_agree : forall m kt k,
  let '(s1, m1) := meq_stamp m kt k in
  let '(rd, m2) := map_read m1 kt k in
  let '(s3, m3) := meq_stamp_writer m2 kt k in
  s1 = lookup m kt k /\ meq_stamp_reader rd = lookup m kt k /\ s3 = lookup m kt k.
Proof. exact routes_agree. Qed.
Print Assumptions C14_routes_agree.
Theorem C14_check_decides : forall m kt k st, fst (meq_check m kt k st) = false <-> lookup m kt k = st.
Proof. exact check_decides. Qed.
Print Assumptions C14_check_decides.
