(* C17 - Tracker events are a faithful, well-nested account of the build.  Property theorems only. *)
From Coq Require Import List ZArith.
From PieV Require Import Model.Build Model.Tracker Proofs.TrackerP Proofs.Trace Proofs.Local2 Proofs.InvE Proofs.ExecEnd.
Import ListNotations.
Open Scope N_scope.

(* the recording tracker stores exactly the recorded kinds since the last build start, index = position *)
Theorem C17_recorder : forall stream,
  et_events (et_run stream) =
  match since_last_bs stream with Some suf => index_from 0 (fm suf) | None => index_from 0 (fm stream) end.
Proof. exact recorder_spec. Qed.
Check C17_recorder : forall stream,
  et_events (et_run stream) =
  match since_last_bs stream with Some suf => index_from 0 (fm suf) | None => index_from 0 (fm stream) end.
Print Assumptions C17_recorder.

(* a composite tracker delivers the identical stream to both children *)
Theorem C17_composite : forall (S1 S2 : Type) (f1 : S1 -> event -> S1) (f2 : S2 -> event -> S2) l s1 s2,
  fold_left (composite_step f1 f2) l (s1, s2) = (fold_left f1 l s1, fold_left f2 l s2).
Proof. exact @composite_forwards. Qed.
Check C17_composite : forall (S1 S2 : Type) (f1 : S1 -> event -> S1) (f2 : S2 -> event -> S2) l s1 s2,
  fold_left (composite_step f1 f2) l (s1, s2) = (fold_left f1 l s1, fold_left f2 l s2).
Print Assumptions C17_composite.

(* the query helpers mean what they document *)
Theorem C17_helpers :
  (forall e, is_build_start e = true <-> e = TBuildStart) /\
  (forall e, is_build_end e = true <-> e = TBuildEnd) /\
  (forall e, is_execute e = true <-> (exists k i, e = TExecuteStart k i) \/ (exists k o i, e = TExecuteEnd k o i)) /\
  (forall e k, is_execute_of e k = true <-> (exists i, e = TExecuteStart k i) \/ (exists o i, e = TExecuteEnd k o i)) /\
  (forall e k e', match_require_start e k = Some e' <-> exists c i, e = TRequireStart k c i /\ e' = e) /\
  (forall e k e', match_require_end e k = Some e' <-> exists c st o i, e = TRequireEnd k c st o i /\ e' = e) /\
  (forall e k e', match_read_start e k = Some e' <-> exists c i, e = TReadStart k c i /\ e' = e) /\
  (forall e k e', match_read_end e k = Some e' <-> exists c st i, e = TReadEnd k c st i /\ e' = e) /\
  (forall e k e', match_write_start e k = Some e' <-> exists c i, e = TWriteStart k c i /\ e' = e) /\
  (forall e k e', match_write_end e k = Some e' <-> exists c st i, e = TWriteEnd k c st i /\ e' = e) /\
  (forall e k e', match_execute_start e k = Some e' <-> exists i, e = TExecuteStart k i /\ e' = e) /\
  (forall e k e', match_execute_end e k = Some e' <-> exists o i, e = TExecuteEnd k o i /\ e' = e).
Proof.
  exact (conj is_build_start_spec (conj is_build_end_spec (conj is_execute_spec (conj is_execute_of_spec
        (conj match_require_start_spec (conj match_require_end_spec (conj match_read_start_spec (conj match_read_end_spec
        (conj match_write_start_spec (conj match_write_end_spec (conj match_execute_start_spec match_execute_end_spec))))))))))).
Qed.
Print Assumptions C17_helpers.

(* find_map, through which the tracker's queries look up an event, returns the first match *)
Theorem C17_find_map_first : forall (A : Type) (f : tevent -> option A) l x,
  find_map f l = Some x <-> exists l1 e l2, l = l1 ++ e :: l2 /\ f e = Some x /\ forall e0, In e0 l1 -> f e0 = None.
Proof. exact @find_map_first. Qed.
Print Assumptions C17_find_map_first.

(* ---- the stream of every build is properly nested, for ALL programs, checkers, worlds and fuel ----
   balanced: the grammar  S ::= empty | atom | start S matching-end | S S   where an atom is a schedule_task event or a
   dangling ReadStart/WriteStart (a read/write whose stamping failed: the code emits no end for it).
   The stream is stored newest first; seg is the chronological segment the build appended. *)
Theorem C17_nested_top_down : forall RC OC P always fuel w t,
  match session_require RC OC P always fuel w t with
  | Done _ w' => exists seg, trace w' = rev seg ++ trace w /\ balanced seg
  | Abort _ w' => exists seg, trace w' = rev seg ++ trace w /\ pbal seg          (* a prefix of a balanced stream *)
  | OutOfFuel => True
  end.
Proof. exact session_require_okD. Qed.
Print Assumptions C17_nested_top_down.

Theorem C17_nested_bottom_up : forall RC OC P fuel w changed,
  match session_bottom_up RC OC P fuel w changed with
  | Done _ w' => exists seg, trace w' = rev seg ++ trace w /\ balanced seg
  | Abort _ w' => exists seg, trace w' = rev seg ++ trace w /\ pbal seg
  | OutOfFuel => True
  end.
Proof. exact session_bottom_up_okD. Qed.
Print Assumptions C17_nested_bottom_up.

(* every nested require, at any depth, likewise (the induction behind the two theorems above) *)
Theorem C17_nested_require : forall RC OC P fuel w t c,
  match require_td RC OC P fuel w t c with
  | Done _ w' => exists seg, trace w' = rev seg ++ trace w /\ balanced seg
  | Abort _ w' => exists seg, trace w' = rev seg ++ trace w /\ pbal seg
  | OutOfFuel => True
  end.
Proof. exact require_td_okD. Qed.
Print Assumptions C17_nested_require.

(* a require-end event carries the value returned to the caller (and the stamp the dependency is updated with) *)
Theorem C17_require_end_value : forall OC mc w t c o w',
  require_with OC mc w t c = Done o w' ->
  exists w3 w4, mc w3 t = Done o w4 /\
    update_require_dependency (emit w4 (ERequireEnd t c (oc_stamp (OC c) o) o)) t c (oc_stamp (OC c) o) = Done tt w'.
Proof. exact require_with_done. Qed.
Print Assumptions C17_require_end_value.

(* ---- "every task execution that really ran appears ... with the output it returned" ----
   last_exec tr t: the latest execution event of t in the (newest-first) stream: Some (Some o) = its end with output o,
   Some None = its start (still running, or aborted), None = t was not executed in this session.
   XI w: for every task, if the latest execution event is the END with o, the store holds exactly o for the task (the value every
   later require returns from the cache); if it is the START, the task has no output.
   For ALL programs, checkers and fuel, after EVERY history -- top-down requires and bottom-up builds in any mix, external
   changes, any number of aborted builds: *)
Theorem C17_exec_events_agree_with_outputs_any_history : forall RC OC P always fuel h,
  XI (snd (run_history RC OC P always fuel init_world h)).
Proof. exact exec_events_agree_with_outputs_any_history. Qed.
Check C17_exec_events_agree_with_outputs_any_history : forall RC OC P always fuel h,
  XI (snd (run_history RC OC P always fuel init_world h)).
Print Assumptions C17_exec_events_agree_with_outputs_any_history.

(* the step form, from ANY world satisfying it, for completed and aborted builds (okO: the world an abort leaves behind; the
   model-only abort ABug 4 aside) -- the invariant is kept by every primitive of the session, in particular between the
   operations of one session *)
Theorem C17_exec_events_agree_top_down : forall RC OC P always fuel w t,
  XI w -> okO XI (session_require RC OC P always fuel w t).
Proof. exact session_require_XI. Qed.
Check C17_exec_events_agree_top_down : forall RC OC P always fuel w t,
  XI w -> okO XI (session_require RC OC P always fuel w t).
Print Assumptions C17_exec_events_agree_top_down.

Theorem C17_exec_events_agree_bottom_up : forall RC OC P fuel w ch,
  XI w -> okO XI (session_bottom_up RC OC P fuel w ch).
Proof. exact session_bottom_up_XI. Qed.
Check C17_exec_events_agree_bottom_up : forall RC OC P fuel w ch,
  XI w -> okO XI (session_bottom_up RC OC P fuel w ch).
Print Assumptions C17_exec_events_agree_bottom_up.

(* ---- "a require-end event carries the value returned to the caller", as a statement about the stream ---- *)
(* every require that returns -- issued by a task top-down, or inside a bottom-up build, whatever make_task_consistent did --
   leaves as NEWEST event its end event with the checker it passed, the stamp of the returned output and the returned output *)
Theorem C17_require_end_is_newest_event_with_returned_value : forall OC mc w t c o w',
  require_with OC mc w t c = Done o w' ->
  exists rest, trace w' = ERequireEnd t c (oc_stamp (OC c) o) o :: rest.
Proof. exact require_end_is_newest_event. Qed.
Check C17_require_end_is_newest_event_with_returned_value : forall OC mc w t c o w',
  require_with OC mc w t c = Done o w' ->
  exists rest, trace w' = ERequireEnd t c (oc_stamp (OC c) o) o :: rest.
Print Assumptions C17_require_end_is_newest_event_with_returned_value.

Theorem C17_require_end_value_bottom_up : forall OC mc w t c o w',
  require_bu_with OC mc w t c = Done o w' ->
  exists rest, trace w' = ERequireEnd t c (oc_stamp (OC c) o) o :: rest.
Proof. exact require_bu_end_value. Qed.
Check C17_require_end_value_bottom_up : forall OC mc w t c o w',
  require_bu_with OC mc w t c = Done o w' ->
  exists rest, trace w' = ERequireEnd t c (oc_stamp (OC c) o) o :: rest.
Print Assumptions C17_require_end_value_bottom_up.

(* Session::require: the stream ends with RequireEnd(task, AlwaysConsistent, stamp, RETURNED output), BuildEnd *)
Theorem C17_session_require_end_value : forall RC OC P always fuel w t o w',
  session_require RC OC P always fuel w t = Done o w' ->
  exists rest, trace w' = EBuildEnd :: ERequireEnd t always (oc_stamp (OC always) o) o :: rest.
Proof. exact session_require_end_value. Qed.
Check C17_session_require_end_value : forall RC OC P always fuel w t o w',
  session_require RC OC P always fuel w t = Done o w' ->
  exists rest, trace w' = EBuildEnd :: ERequireEnd t always (oc_stamp (OC always) o) o :: rest.
Print Assumptions C17_session_require_end_value.

(* non-vacuity: a stream whose latest event for task 1 is the end with 8, for task 2 the start *)
Example C17_last_exec_witness :
  last_exec [EExecStart 2; EExecEnd 1 8; EReadStart 3 5; EExecStart 1] 1 = Some (Some 8%Z) /\
  last_exec [EExecStart 2; EExecEnd 1 8; EReadStart 3 5; EExecStart 1] 2 = Some None /\
  last_exec [EExecStart 2; EExecEnd 1 8; EReadStart 3 5; EExecStart 1] 3 = None.
Proof. repeat split. Qed.
Print Assumptions C17_last_exec_witness.

Example C17_balanced_witness :
  balanced [EBuildStart; ERequireStart 1 2; EExecStart 1; EReadStart 3 5; EReadStart 4 0; EReadEnd 4 0 7; ESchedTask 9;
            EExecEnd 1 8; ERequireEnd 1 2 0 8; EBuildEnd].
Proof. exact balanced_witness. Qed.
Print Assumptions C17_balanced_witness.
