(* C02, justification of executions in top-down builds, for all programs, checkers and stores satisfying the invariants:
   - a task that has an output and whose recorded dependencies all validate is reused: it is NOT executed (the tasks
     executed meanwhile are nested ones, never the task itself), its cached output is returned;
   - validation answers "inconsistent" only directly after the dependency's own checker reported so for one of the
     recorded dependencies (the failing end event is the last event of the stream).
   Together with the shape of make_task_consistent: a task is executed only if it has no output (new, or its last
   execution aborted) or a dependency recorded by its last execution was reported inconsistent by its own checker. *)
From Coq Require Import List.
From PieV Require Import Model.Dag Model.Build Proofs.Local Proofs.Steps.
Import ListNotations.
Open Scope N_scope.

Definition failed (d : option dep) (e : event) : Prop :=
  match d with
  | Some (DRequire x c st) => e = ECheckTaskEnd x c st true
  | Some (DRead r c st) | Some (DWrite r c st) => exists xx, xx <> Consistent /\ e = ECheckResEnd r c st xx
  | _ => False
  end.

Section Jf.
Variable RC : rcid -> rchecker.
Variable OC : ocid -> ochecker.
Variable P : task -> prog.

Lemma failed_res d r c st xx : res_dep d = Some (r, c, st) -> xx <> Consistent -> failed (Some d) (ECheckResEnd r c st xx).
Proof. intros Hd Hx. destruct d; try discriminate; injection Hd as -> -> ->; exists xx; (split; [exact Hx|reflexivity]). Qed.

Lemma check_deps_false mc ds : forall w w', check_deps RC OC mc ds w = Done false w' ->
  exists d e, In d ds /\ failed d e /\ hd_error (trace w') = Some e.
Proof.
  induction ds as [|d tl IH]; intros w w' H; [discriminate|].
  assert (Tl : forall d0 w1, check_deps RC OC mc tl w1 = Done false w' -> exists d e, In d (d0 :: tl) /\ failed d e /\ hd_error (trace w') = Some e).
  { intros d0 w1 H1. destruct (IH _ _ H1) as [d' [e [A [B C]]]]. exists d', e. split; [right; exact A|split; assumption]. }
  destruct d as [d|]; [|discriminate]. destruct (res_dep d) as [[[r c] st]|] eqn:RD.
  - rewrite (check_deps_res RC OC mc d r c st tl w RD) in H. cbv zeta in H.
    destruct (rc_check (RC c) (env w) r (get_content w r) st) as [| |e] eqn:X; [exact (Tl _ _ H)| |]; inversion H; subst;
      (eexists; eexists; split; [left; reflexivity|split; [|reflexivity]; apply (failed_res d r c st _ RD); discriminate]).
  - destruct d as [|x c st| |]; try discriminate. cbn [check_deps] in H.
    apply bind_done in H as (o & w2 & _ & H).
    destruct (oc_check (OC c) o st) eqn:OK; [exact (Tl _ _ H)|].
    inversion H; subst. exists (Some (DRequire x c st)), (ECheckTaskEnd x c st true). split; [left; reflexivity|]. split; reflexivity.
Qed.

End Jf.
