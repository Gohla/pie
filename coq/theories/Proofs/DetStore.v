(* C16, engine level: the store reaches the graph through one function that involves an unordered iteration, Store::add_dependency
   (= DAG::add_edge).  With the change sets of the order repair iterated in ANY order (add_edge_sh, Determinism.v), it returns the
   same answer and the same world in every world that satisfies the store invariant -- i.e. in every reachable world
   (C06_store_invariant_every_reachable_state).  Every other container of the engine is only probed for membership
   (consistent set, queue set, visited sets, the two key maps) or iterated in insertion order (adjacency lists), and the queue's
   vector is sorted by unique ranks before every pop (C16_queue_pop_independent_of_push_order). *)
From Coq Require Import List NArith Bool.
From PieV Require Import Model.Dag Model.Build Proofs.StoreInv Proofs.Determinism.
Import ListNotations.
Open Scope N_scope.

Section DS.
Variables shf shb : dag dep -> list node -> list node.
Hypothesis shf_mem : forall g l x, In x (shf g l) <-> In x l.
Hypothesis shb_mem : forall g l x, In x (shb g l) <-> In x l.

Definition add_dependency_sh (w : world) (s d : node) (dp : dep) : addres * world :=
  match add_edge_sh shf shb (gr w) s d dp with
  | (AOk _, g') => (AddOk, set_gr w g')
  | (AErr CycleDetected, g') => (AddCycle, set_gr w g')
  | (AErr NodeMissing, g') => (AddBug, set_gr w g')
  | (AFuel, g') => (AddBug, set_gr w g')
  end.

Theorem add_dependency_iteration_order_independent w s d dp :
  StoreOK w -> add_dependency_sh w s d dp = add_dependency w s d dp.
Proof.
  intros [W _]. unfold add_dependency_sh, add_dependency.
  rewrite (add_edge_iteration_order_independent shf shb shf_mem shb_mem (gr w) s d dp W). reflexivity.
Qed.
End DS.
