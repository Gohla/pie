(* The DAG invariant WF; what remove_edge, remove_outgoing (remove_outgoing_edges_of_node) and remove_node do to the edge set, the edge data and
   the iteration order -- exactly (C11, "removes exactly those edges and their data and nothing else") -- and that they and
   add_node preserve WF.  (add_edge: DagAddEdge.v) *)
From Coq Require Import List NArith Bool Lia.
From PieV Require Import Model.Dag Proofs.DagLib.
Import ListNotations.
Open Scope N_scope.

(* remove_node's compaction: the ranks above the removed one move down by one *)
Definition close_gap (r x : N) : N := if N.ltb r x then x - 1 else x.
Lemma close_gap_lt r a b : a <> r -> a < b -> close_gap r a < close_gap r b.
Proof. unfold close_gap. intros. destruct (N.ltb_spec r a); destruct (N.ltb_spec r b); lia. Qed.
Lemma close_gap_inj r a b : a <> r -> b <> r -> close_gap r a = close_gap r b -> a = b.
Proof. unfold close_gap. intros. destruct (N.ltb_spec r a); destruct (N.ltb_spec r b); lia. Qed.
Lemma close_gap_range r a n : 1 <= r <= n -> 1 <= a <= n -> a <> r -> 1 <= close_gap r a <= n - 1.
Proof. unfold close_gap. intros. destruct (N.ltb_spec r a); lia. Qed.

Section WF.
Context {ED : Type}.
Implicit Types g : dag ED.

Record WF g : Prop := mkWF {
  wf_ids : NoDup (map fst (infos g));
  wf_kn : forall u, NoDup (kids_of g u);
  wf_pn : forall v, NoDup (pars_of g v);
  wf_sym : forall u v, In v (kids_of g u) <-> In u (pars_of g v);
  wf_closed : forall u v, In v (kids_of g u) -> live g u = true /\ live g v = true;
  wf_edata : forall u v, get_edata g u v <> None <-> In v (kids_of g u);
  wf_inj : forall u v, live g u = true -> live g v = true -> rank_of g u = rank_of g v -> u = v;
  wf_range : forall u, live g u = true -> 1 <= rank_of g u <= last g;
  wf_last : last g = N.of_nat (length (infos g));
  wf_topo : forall u v, In v (kids_of g u) -> rank_of g u < rank_of g v
}.

Lemma WF_empty : WF (@empty ED).
Proof.
  constructor; cbn; try (intros; constructor); try (intros; tauto); try discriminate;
  try (intros u v; split; [intros X; exfalso; apply X; reflexivity|intros []]).
Qed.

Lemma wf_noloop g u : WF g -> ~ In u (kids_of g u).
Proof. intros W X. apply (wf_topo g W) in X. lia. Qed.

Lemma wf_no_edata g u v : WF g -> ~ In v (kids_of g u) -> get_edata g u v = None.
Proof. intros W H. destruct (get_edata g u v) eqn:X; [|reflexivity]. destruct H. apply (wf_edata g W). congruence. Qed.

Lemma get_info_add_node g id m :
  live g id = false ->
  get_info (add_node_at g id) m = if N.eqb m id then Some (mkNinfo (last g + 1) [] []) else get_info g m.
Proof.
  intros Hd. unfold get_info, add_node_at. cbn [infos]. rewrite get_info_l_app. cbn.
  destruct (N.eqb m id) eqn:X.
  - apply N.eqb_eq in X. subst m. unfold live, get_info in Hd.
    destruct (get_info_l (infos g) id); [discriminate|]. rewrite N.eqb_refl. reflexivity.
  - destruct (get_info_l (infos g) m); [reflexivity|]. rewrite N.eqb_sym, X. reflexivity.
Qed.

Lemma live_add_node g id m : live (add_node_at g id) m = live g m || N.eqb m id.
Proof.
  unfold live, get_info, add_node_at. cbn [infos]. rewrite get_info_l_app.
  destruct (get_info_l (infos g) m); [reflexivity|]. cbn. rewrite (N.eqb_sym id m). destruct (N.eqb m id); reflexivity.
Qed.
Lemma kids_of_add_node g id m : kids_of (add_node_at g id) m = kids_of g m.
Proof.
  unfold kids_of, get_info, add_node_at. cbn [infos]. rewrite get_info_l_app.
  destruct (get_info_l (infos g) m); [reflexivity|]. cbn. destruct (N.eqb id m); reflexivity.
Qed.
Lemma pars_of_add_node g id m : pars_of (add_node_at g id) m = pars_of g m.
Proof.
  unfold pars_of, get_info, add_node_at. cbn [infos]. rewrite get_info_l_app.
  destruct (get_info_l (infos g) m); [reflexivity|]. cbn. destruct (N.eqb id m); reflexivity.
Qed.

Lemma WF_add_node_at g id : WF g -> live g id = false -> WF (add_node_at g id).
Proof.
  intros W Hd.
  assert (GI := fun m => get_info_add_node g id m Hd).
  assert (LV : forall m, live (add_node_at g id) m = if N.eqb m id then true else live g m).
  { intros m. rewrite live_add_node. destruct (N.eqb m id); [apply orb_true_r|apply orb_false_r]. }
  assert (RK : forall m, rank_of (add_node_at g id) m = if N.eqb m id then last g + 1 else rank_of g m).
  { intros m. unfold rank_of. rewrite GI. destruct (N.eqb m id); reflexivity. }
  pose proof (kids_of_add_node g id) as KD. pose proof (pars_of_add_node g id) as PR.
  destruct W as [Wi Wk Wp Ws Wc We Wj Wr Wl Wt].
  constructor.
  - unfold add_node_at. cbn [infos]. rewrite map_app. cbn. apply NoDup_app_single; [exact Wi|].
    intros X. apply live_true_iff in X. congruence.
  - intros u. rewrite KD. apply Wk.
  - intros v. rewrite PR. apply Wp.
  - intros u v. rewrite KD, PR. apply Ws.
  - intros u v. rewrite KD, !LV. intros X. destruct (Wc u v X) as [A B]. rewrite A, B.
    destruct (N.eqb u id), (N.eqb v id); split; reflexivity.
  - intros u v. rewrite KD. apply We.
  - intros u v. rewrite !LV, !RK. destruct (N.eqb u id) eqn:X; destruct (N.eqb v id) eqn:Y; intros A B C.
    + apply N.eqb_eq in X, Y. congruence.
    + pose proof (Wr v B) as R. clear -R C. lia.
    + pose proof (Wr u A) as R. clear -R C. lia.
    + apply Wj; assumption.
  - intros u. rewrite LV, RK. unfold add_node_at. cbn [last]. destruct (N.eqb u id); intros A; [clear; lia|].
    pose proof (Wr u A) as R. clear -R. lia.
  - unfold add_node_at. cbn [last infos]. rewrite app_length, Wl. cbn [length]. clear. lia.
  - intros u v. rewrite KD, !RK. intros X. destruct (Wc u v X) as [A B].
    destruct (N.eqb_spec u id) as [->|_]; [rewrite Hd in A; discriminate|].
    destruct (N.eqb_spec v id) as [->|_]; [rewrite Hd in B; discriminate|]. apply Wt. exact X.
Qed.

Lemma WF_add_node g : WF g -> (forall n, live g n = true -> n < fresh g) -> WF (snd (add_node g)).
Proof.
  intros W F. apply WF_add_node_at; [exact W|].
  destruct (live g (fresh g)) eqn:X; [|reflexivity]. specialize (F _ X). lia.
Qed.

Definition removes g g' (keep : node -> node -> bool) : Prop :=
  (forall u, kids_of g' u = filter (keep u) (kids_of g u)) /\
  (forall v, pars_of g' v = filter (fun u => keep u v) (pars_of g v)) /\
  (forall u v, get_edata g' u v = if keep u v then get_edata g u v else None).

Section Removes.
Variables (g g' : dag ED) (keep : node -> node -> bool).
Hypotheses (W : WF g) (R : removes g g' keep).

Lemma removes_kids u v : In v (kids_of g' u) <-> In v (kids_of g u) /\ keep u v = true.
Proof. rewrite (proj1 R). apply filter_In. Qed.

Lemma removes_adj :
  (forall u, NoDup (kids_of g' u)) /\ (forall v, NoDup (pars_of g' v)) /\
  (forall u v, In v (kids_of g' u) <-> In u (pars_of g' v)) /\ (forall u v, get_edata g' u v <> None <-> In v (kids_of g' u)).
Proof.
  destruct R as [HK [HP HE]].
  split; [intros u; rewrite HK; apply NoDup_filter, W|]. split; [intros v; rewrite HP; apply NoDup_filter, W|]. split.
  - intros u v. rewrite HK, HP, !filter_In, (wf_sym g W). reflexivity.
  - intros u v. rewrite HE, HK, filter_In, <- (wf_edata g W). destruct (keep u v); [split; [intros X; split; [exact X|reflexivity]|intros [X _]; exact X]|]. split; [congruence|intros [_ X]; discriminate].
Qed.

Lemma WF_removes :
  map fst (infos g') = map fst (infos g) -> last g' = last g ->
  (forall m, live g' m = live g m) -> (forall m, rank_of g' m = rank_of g m) -> WF g'.
Proof.
  intros I L LV RK. destruct removes_adj as [A [B [C D]]]. constructor; [|exact A|exact B|exact C| |exact D| | | |].
  - rewrite I. apply W.
  - intros u v X. apply removes_kids in X. rewrite !LV. exact (wf_closed g W u v (proj1 X)).
  - intros u v. rewrite !LV, !RK. apply W.
  - intros u. rewrite LV, RK, L. apply W.
  - rewrite L, (wf_last g W), <- (map_length fst (infos g')), I, map_length. reflexivity.
  - intros u v X. apply removes_kids in X. rewrite !RK. exact (wf_topo g W u v (proj1 X)).
Qed.
End Removes.

Lemma remove_edge_frame g s d :
  let g' := snd (remove_edge g s d) in map fst (infos g') = map fst (infos g) /\ last g' = last g /\ fresh g' = fresh g.
Proof.
  cbn zeta. unfold remove_edge. destruct (negb (live g s) || negb (live g d)); [repeat split|].
  destruct (negb (memN d (kids_of g s))); [repeat split|]. cbn [snd]. unfold remove_edata, set_edata. cbn [infos last fresh].
  rewrite !ids_upd. repeat split.
Qed.

Theorem remove_edge_view g s d :
  WF g ->
  let g' := snd (remove_edge g s d) in
  match fst (remove_edge g s d) with
  | None => g' = g /\ (live g s = false \/ live g d = false \/ ~ In d (kids_of g s))
  | Some e =>
      get_edata g s d = Some e /\ In d (kids_of g s) /\
      (forall m, live g' m = live g m) /\ (forall m, rank_of g' m = rank_of g m) /\
      (forall m, kids_of g' m = if N.eqb m s then removeN d (kids_of g m) else kids_of g m) /\
      (forall m, pars_of g' m = if N.eqb m d then removeN s (pars_of g m) else pars_of g m) /\
      (forall u v, get_edata g' u v = if pair_eqb (s, d) (u, v) then None else get_edata g u v)
  end.
Proof.
  intros W. cbn zeta. destruct (remove_edge g s d) as [r g'] eqn:E. cbn [fst snd]. unfold remove_edge in E.
  destruct (live g s) eqn:Ls; cbn [negb orb] in E; [|injection E as <- <-; split; [reflexivity|left; reflexivity]].
  destruct (live g d) eqn:Ld; cbn [negb orb] in E; [|injection E as <- <-; split; [reflexivity|right; left; reflexivity]].
  destruct (memN d (kids_of g s)) eqn:M; cbn [negb] in E; [|injection E as <- <-; split; [reflexivity|right; right; apply memN_false; exact M]].
  apply memN_In in M. injection E as <- <-.
  set (g1 := upd_info g s (fun i => mkNinfo (rank i) (removeN d (kids i)) (pars i))).
  set (g2 := upd_info g1 d (fun i => mkNinfo (rank i) (kids i) (removeN s (pars i)))).
  assert (E : exists e, get_edata g s d = Some e).
  { destruct (get_edata g s d) eqn:X; [eexists; reflexivity|]. exfalso. apply (wf_edata g W) in M. congruence. }
  destruct E as [e He]. change (get_edata g2 s d) with (get_edata g s d). rewrite He.
  split; [reflexivity|]. split; [exact M|]. repeat split.
  - intros m. change (live (remove_edata g2 s d) m) with (live g2 m). unfold g2. rewrite live_upd. apply live_upd.
  - intros m. change (rank_of (remove_edata g2 s d) m) with (rank_of g2 m). unfold g2, g1. rewrite !rank_of_upd_keep by reflexivity. reflexivity.
  - intros m. change (kids_of (remove_edata g2 s d) m) with (kids_of g2 m). unfold g2. rewrite kids_of_upd_keep by reflexivity.
    unfold g1. apply (kids_of_upd_map _ _ _ (removeN d)); reflexivity.
  - intros m. change (pars_of (remove_edata g2 s d) m) with (pars_of g2 m). unfold g2.
    rewrite (pars_of_upd_map _ _ _ (removeN s)) by reflexivity. unfold g1. rewrite pars_of_upd_keep by reflexivity. reflexivity.
  - intros u v. rewrite get_edata_remove. reflexivity.
Qed.

Lemma remove_edge_removes g s d :
  WF g -> fst (remove_edge g s d) <> None -> removes g (snd (remove_edge g s d)) (fun u v => negb (pair_eqb (u, v) (s, d))).
Proof.
  intros W NN. pose proof (remove_edge_view g s d W) as V. cbn zeta in V.
  destruct (fst (remove_edge g s d)); [|congruence]. destruct V as [_ [_ [_ [_ [VK [VP VE]]]]]].
  unfold pair_eqb. cbn [fst snd]. split; [|split].
  - intros u. rewrite VK. destruct (N.eqb u s); cbn [negb andb]; [apply removeN_filter|symmetry; apply filter_true_id; reflexivity].
  - intros v. rewrite VP. destruct (N.eqb v d).
    + rewrite (filter_ext _ (fun y => negb (N.eqb y s))) by (intros; rewrite andb_true_r; reflexivity). apply removeN_filter.
    + symmetry. apply filter_true_id. intros; rewrite andb_false_r; reflexivity.
  - intros u v. rewrite VE. unfold pair_eqb. cbn [fst snd]. rewrite (N.eqb_sym s u), (N.eqb_sym d v).
    destruct (N.eqb u s && N.eqb v d); reflexivity.
Qed.

Lemma WF_remove_edge g s d : WF g -> WF (snd (remove_edge g s d)).
Proof.
  intros W. pose proof (remove_edge_view g s d W) as V. pose proof (remove_edge_removes g s d W) as R.
  destruct (remove_edge_frame g s d) as [I [L _]]. cbn zeta in *.
  destruct (fst (remove_edge g s d)); [|destruct V as [-> _]; exact W].
  destruct V as [_ [_ [LV [RK _]]]]. apply (WF_removes g _ _ W (R ltac:(discriminate)) I L LV RK).
Qed.

Lemma removeN_idem x l : removeN x (removeN x l) = removeN x l.
Proof. apply removeN_notin. intros X. apply In_removeN in X. tauto. Qed.

Definition ro_step (s : node) (acc : list (node * ED) * dag ED) (c : node) : list (node * ED) * dag ED :=
  let '(out, gg) := acc in
  let gg1 := upd_info gg c (fun i => mkNinfo (rank i) (kids i) (removeN s (pars i))) in
  match get_edata gg1 s c with
  | Some e => (out ++ [(c, e)], remove_edata gg1 s c)
  | None => (out, gg1)
  end.

Lemma fold_upd_l_ids l (F : node -> ninfo -> ninfo) cs :
  map fst (fold_left (fun l c => upd_info_l l c (F c)) cs l) = map fst l.
Proof. revert l. induction cs as [|c tl IH]; intros l; cbn; [reflexivity|]. rewrite IH. apply map_fst_upd. Qed.

(* folding an idempotent update over cs applies it at every node of cs; where it changes nothing elsewhere, it is applied everywhere *)
Lemma fold_upd_l_get l (f : ninfo -> ninfo) cs m :
  (forall i, f (f i) = f i) -> (~ In m cs -> forall i, get_info_l l m = Some i -> f i = i) ->
  get_info_l (fold_left (fun l c => upd_info_l l c f) cs l) m = option_map f (get_info_l l m).
Proof.
  intros Hid. revert l. induction cs as [|c tl IH]; intros l Hout; cbn [fold_left].
  - destruct (get_info_l l m) as [i|] eqn:G; [cbn; rewrite (Hout (fun X => X) i eq_refl)|]; reflexivity.
  - rewrite IH; rewrite get_info_upd_l.
    + destruct (N.eqb m c); [|reflexivity]. destruct (get_info_l l m); cbn; [rewrite Hid|]; reflexivity.
    + intros M i. destruct (N.eqb_spec m c) as [->|Hmc].
      * destruct (get_info_l l c); cbn; [|discriminate]. intros E. injection E as <-. apply Hid.
      * apply Hout. intros [E|X]; [destruct (Hmc (eq_sym E))|exact (M X)].
Qed.

Lemma fold_remove_kids (l : list ((node * node) * ED)) n cs u v :
  get_edata_l (fold_left (fun l c => remove_edata_l l (n, c)) cs l) (u, v) =
  if N.eqb u n && memN v cs then None else get_edata_l l (u, v).
Proof.
  revert l. induction cs as [|c tl IH]; intros l; cbn [fold_left]; [rewrite andb_false_r; reflexivity|].
  rewrite IH. cbn [memN existsb]. fold (memN v tl).
  destruct (N.eqb_spec u n) as [->|Hun]; cbn.
  - destruct (memN v tl); [rewrite orb_true_r; reflexivity|]. rewrite orb_false_r.
    destruct (N.eqb_spec v c) as [->|Hvc].
    + apply get_edata_l_remove_same.
    + apply get_edata_l_remove_other. intros X. inversion X. congruence.
  - apply get_edata_l_remove_other. intros X. inversion X. congruence.
Qed.
Lemma remove_edata_l_notin (l : list ((node * node) * ED)) k : get_edata_l l k = None -> remove_edata_l l k = l.
Proof.
  induction l as [|[k' e] tl IH]; cbn; [reflexivity|]. destruct (pair_eqb k' k) eqn:X; [discriminate|]. intros H. cbn. f_equal. apply IH. exact H.
Qed.

(* the walk over the children is the two folds of remove_node's first half: one over the node infos, one over the edge data *)
Lemma ro_fold_eq s cs : forall out gg,
  snd (fold_left (ro_step s) cs (out, gg)) =
  mkDag (fold_left (fun l c => upd_info_l l c (fun i => mkNinfo (rank i) (kids i) (removeN s (pars i)))) cs (infos gg))
        (fold_left (fun l c => remove_edata_l l (s, c)) cs (edata gg)) (last gg) (fresh gg).
Proof.
  induction cs as [|c tl IH]; intros out gg; cbn [fold_left]; [destruct gg; reflexivity|].
  destruct (ro_step s (out, gg) c) as [out1 gg1] eqn:St. rewrite IH. unfold ro_step in St.
  destruct (get_edata (upd_info gg c (fun i => mkNinfo (rank i) (kids i) (removeN s (pars i)))) s c) eqn:X; injection St as <- <-.
  - reflexivity.
  - cbn [infos edata last fresh upd_info]. rewrite (remove_edata_l_notin (edata gg) (s, c) X). reflexivity.
Qed.

Lemma remove_outgoing_snd g s :
  snd (remove_outgoing g s) =
  if negb (live g s) then g
  else match kids_of g s with
       | [] => upd_info g s (fun i => mkNinfo (rank i) [] (pars i))
       | _ => snd (fold_left (ro_step s) (kids_of g s) ([], upd_info g s (fun i => mkNinfo (rank i) [] (pars i))))
       end.
Proof.
  unfold remove_outgoing. destruct (negb (live g s)); [reflexivity|].
  destruct (kids_of g s) as [|c tl] eqn:K; [reflexivity|].
  match goal with |- snd (let '(out, g2) := fold_left ?f ?l ?a in _) = snd (fold_left ?f' ?l ?a) =>
    change f with f'; destruct (fold_left f' l a) end. reflexivity.
Qed.

Lemma remove_outgoing_frame g s :
  let g' := snd (remove_outgoing g s) in map fst (infos g') = map fst (infos g) /\ last g' = last g /\ fresh g' = fresh g.
Proof.
  cbn zeta. rewrite remove_outgoing_snd. destruct (negb (live g s)); [repeat split|].
  destruct (kids_of g s) as [|c tl] eqn:K; [rewrite ids_upd; repeat split|].
  rewrite <- K, ro_fold_eq. cbn [infos last fresh]. rewrite fold_upd_l_ids. repeat split. apply map_fst_upd.
Qed.

Theorem remove_outgoing_view g s :
  WF g ->
  let g' := snd (remove_outgoing g s) in
  map fst (infos g') = map fst (infos g) /\ last g' = last g /\
  (forall m, live g' m = live g m) /\ (forall m, rank_of g' m = rank_of g m) /\
  (forall m, kids_of g' m = if N.eqb m s then [] else kids_of g m) /\
  (forall m, pars_of g' m = removeN s (pars_of g m)) /\
  (forall u v, get_edata g' u v = if N.eqb u s then None else get_edata g u v).
Proof.
  intros W. cbn zeta. pose proof (fun v => wf_no_edata g s v W) as NE. destruct (live g s) eqn:L.
  2:{ (* a node that is not in the graph has no edges: nothing to remove *)
      rewrite remove_outgoing_snd, L. cbn [negb]. pose proof (kids_of_dead g s L) as K. repeat split.
      - intros m. destruct (N.eqb_spec m s) as [->|]; [exact K|reflexivity].
      - intros m. symmetry. apply removeN_notin. intros X. apply (wf_sym g W) in X. rewrite K in X. destruct X.
      - intros u v. destruct (N.eqb_spec u s) as [->|]; [|reflexivity]. apply NE. rewrite K. intros []. }
  set (f := fun i => mkNinfo (rank i) (kids i) (removeN s (pars i))).
  set (g1 := upd_info g s (fun i => mkNinfo (rank i) [] (pars i))).
  (* with no child the walk over the children does nothing, so the two cases of the code are one *)
  assert (E : snd (remove_outgoing g s) = snd (fold_left (ro_step s) (kids_of g s) ([], g1))).
  { rewrite remove_outgoing_snd, L. cbn [negb]. fold g1. destruct (kids_of g s); reflexivity. }
  rewrite E, ro_fold_eq. fold f. clear E.
  destruct W as [Wi Wk Wp Ws Wc We Wj Wr Wl Wt].
  (* the fold touches the children of s; the other nodes do not have s among their parents *)
  assert (GI : forall m, get_info_l (fold_left (fun l c => upd_info_l l c f) (kids_of g s) (infos g1)) m
                         = option_map f (if N.eqb m s then option_map (fun i => mkNinfo (rank i) [] (pars i)) (get_info g m) else get_info g m)).
  { intros m. fold (get_info g1 m). rewrite <- (get_info_upd g s _ m). fold g1. apply fold_upd_l_get.
    - intros i. unfold f. cbn [rank kids pars]. rewrite removeN_idem. reflexivity.
    - intros M i Gi. unfold f. rewrite removeN_notin; [destruct i; reflexivity|]. intros Y. apply M. apply Ws.
      assert (P : pars_of g1 m = pars_of g m) by (apply pars_of_upd_keep; reflexivity).
      rewrite <- P. unfold pars_of, get_info. rewrite Gi. exact Y. }
  unfold get_info in GI.
  repeat split.
  - cbn [infos]. rewrite fold_upd_l_ids. apply ids_upd.
  - intros m. unfold live, get_info. cbn [infos]. rewrite GI. destruct (N.eqb m s); destruct (get_info_l (infos g) m); reflexivity.
  - intros m. unfold rank_of, get_info. cbn [infos]. rewrite GI. destruct (N.eqb m s); destruct (get_info_l (infos g) m); reflexivity.
  - intros m. unfold kids_of, get_info. cbn [infos]. rewrite GI. destruct (N.eqb m s); destruct (get_info_l (infos g) m); reflexivity.
  - intros m. unfold pars_of, get_info. cbn [infos]. rewrite GI. destruct (N.eqb m s); destruct (get_info_l (infos g) m); reflexivity.
  - intros u v. unfold get_edata at 1. cbn [edata]. rewrite fold_remove_kids. change (get_edata_l (edata g1) (u, v)) with (get_edata g u v).
    destruct (N.eqb_spec u s) as [->|]; cbn [andb]; [|reflexivity].
    destruct (memN v (kids_of g s)) eqn:X; [reflexivity|]. apply NE. apply memN_false. exact X.
Qed.

Lemma remove_outgoing_removes g s :
  WF g -> removes g (snd (remove_outgoing g s)) (fun u _ => negb (N.eqb u s)).
Proof.
  intros W. destruct (remove_outgoing_view g s W) as [_ [_ [_ [_ [VK [VP VE]]]]]]. split; [|split].
  - intros u. rewrite VK. destruct (N.eqb u s); cbn [negb]; [rewrite filter_false_nil; reflexivity|symmetry; apply filter_true_id; reflexivity].
  - intros v. rewrite VP. apply removeN_filter.
  - intros u v. rewrite VE. destruct (N.eqb u s); reflexivity.
Qed.

Lemma WF_remove_outgoing g s : WF g -> WF (snd (remove_outgoing g s)).
Proof.
  intros W. destruct (remove_outgoing_view g s W) as [V1 [V2 [V3 [V4 _]]]].
  exact (WF_removes g _ _ W (remove_outgoing_removes g s W) V1 V2 V3 V4).
Qed.

Lemma get_info_l_filter l n m :
  get_info_l (filter (fun p => negb (N.eqb (fst p) n)) l) m = if N.eqb m n then None else get_info_l l m.
Proof.
  induction l as [|[k i] tl IH]; cbn; [destruct (N.eqb m n); reflexivity|].
  destruct (N.eqb k n) eqn:Ekn; cbn.
  - rewrite IH. destruct (N.eqb m n) eqn:Emn; [reflexivity|].
    apply N.eqb_eq in Ekn. subst k. rewrite N.eqb_sym, Emn. reflexivity.
  - destruct (N.eqb k m) eqn:Ekm.
    + apply N.eqb_eq in Ekm. subst k. rewrite Ekn. reflexivity.
    + exact IH.
Qed.
Lemma get_info_l_map l (h : ninfo -> ninfo) m :
  get_info_l (map (fun p => (fst p, h (snd p))) l) m = option_map h (get_info_l l m).
Proof. induction l as [|[k i] tl IH]; cbn; [reflexivity|]. destruct (N.eqb k m); [reflexivity|exact IH]. Qed.

Lemma fold_remove_pars (l : list ((node * node) * ED)) n ps u v :
  get_edata_l (fold_left (fun l p => remove_edata_l l (p, n)) ps l) (u, v) =
  if N.eqb v n && memN u ps then None else get_edata_l l (u, v).
Proof.
  revert l. induction ps as [|c tl IH]; intros l; cbn [fold_left]; [rewrite andb_false_r; reflexivity|].
  rewrite IH. cbn [memN existsb]. fold (memN u tl).
  destruct (N.eqb v n) eqn:Evn; cbn.
  - apply N.eqb_eq in Evn. destruct (memN u tl); [rewrite orb_true_r; reflexivity|]. rewrite orb_false_r.
    destruct (N.eqb u c) eqn:Euc.
    + apply N.eqb_eq in Euc. rewrite Euc, Evn. apply get_edata_l_remove_same.
    + apply N.eqb_neq in Euc. apply get_edata_l_remove_other. intros X. inversion X. congruence.
  - apply N.eqb_neq in Evn. apply get_edata_l_remove_other. intros X. inversion X. congruence.
Qed.

Lemma map_fst_filter (l : list (node * ninfo)) n :
  map fst (filter (fun p => negb (N.eqb (fst p) n)) l) = filter (fun x => negb (N.eqb x n)) (map fst l).
Proof. induction l as [|[k i] tl IH]; cbn; [reflexivity|]. destruct (N.eqb k n); cbn; [exact IH|f_equal; exact IH]. Qed.
Lemma filter_neq_notin (l : list N) n : ~ In n l -> filter (fun x => negb (N.eqb x n)) l = l.
Proof. rewrite <- removeN_filter. apply removeN_notin. Qed.
Lemma length_filter_remove (l : list N) n :
  NoDup l -> In n l -> S (length (filter (fun x => negb (N.eqb x n)) l)) = length l.
Proof.
  induction l as [|x tl IH]; cbn; [intros _ []|]. intros Hn [->|Hin].
  - rewrite N.eqb_refl. cbn. inversion Hn; subst. rewrite filter_neq_notin by assumption. reflexivity.
  - inversion Hn; subst. destruct (N.eqb_spec x n) as [->|]; [contradiction|]. cbn. f_equal. apply IH; assumption.
Qed.

Lemma remove_node_dead g n : live g n = false -> remove_node g n = (false, g).
Proof. unfold live, remove_node. destruct (get_info g n); [discriminate|reflexivity]. Qed.

Lemma remove_node_frame g n :
  live g n = true ->
  let g' := snd (remove_node g n) in
  map fst (infos g') = filter (fun x => negb (N.eqb x n)) (map fst (infos g)) /\ last g' = last g - 1 /\ fresh g' = fresh g.
Proof.
  intros Ln. cbn zeta. unfold remove_node. unfold live in Ln. destruct (get_info g n); [|discriminate]. cbn [snd infos last fresh].
  repeat split. rewrite map_map. cbn [fst]. change (fun x : node * ninfo => fst x) with (@fst node ninfo).
  rewrite !fold_upd_l_ids. apply map_fst_filter.
Qed.

Theorem remove_node_view g n :
  WF g -> live g n = true ->
  let g' := snd (remove_node g n) in
  fst (remove_node g n) = true /\
  (forall m, live g' m = if N.eqb m n then false else live g m) /\
  (forall m, kids_of g' m = if N.eqb m n then [] else removeN n (kids_of g m)) /\
  (forall m, pars_of g' m = if N.eqb m n then [] else removeN n (pars_of g m)) /\
  (forall m, m <> n -> rank_of g' m = if N.ltb (rank_of g n) (rank_of g m) then rank_of g m - 1 else rank_of g m) /\
  (forall u v, get_edata g' u v = if N.eqb u n || N.eqb v n then None else get_edata g u v).
Proof.
  intros W Ln. cbn zeta. pose proof (fun u v => wf_no_edata g u v W) as NE.
  unfold live in Ln. destruct (get_info g n) as [ni|] eqn:Gn; [|discriminate].
  split; [unfold remove_node; rewrite Gn; reflexivity|].
  assert (Kn : kids_of g n = kids ni) by (unfold kids_of; rewrite Gn; reflexivity).
  assert (Pn : pars_of g n = pars ni) by (unfold pars_of; rewrite Gn; reflexivity).
  assert (Rn : rank_of g n = rank ni) by (unfold rank_of; rewrite Gn; reflexivity).
  remember (snd (remove_node g n)) as g' eqn:E. unfold remove_node in E. rewrite Gn in E. cbn [snd] in E.
  set (f1 := fun i => mkNinfo (rank i) (kids i) (removeN n (pars i))) in E.
  set (f2 := fun i => mkNinfo (rank i) (removeN n (kids i)) (pars i)) in E.
  destruct W as [Wi Wk Wp Ws Wc We Wj Wr Wl Wt].
  assert (Hid1 : forall i, f1 (f1 i) = f1 i) by (intros i; unfold f1; cbn [rank kids pars]; rewrite removeN_idem; reflexivity).
  assert (Hid2 : forall i, f2 (f2 i) = f2 i) by (intros i; unfold f2; cbn [rank kids pars]; rewrite removeN_idem; reflexivity).
  assert (GI : forall m, get_info g' m =
     if N.eqb m n then None else
     option_map (fun i => mkNinfo (close_gap (rank ni) (rank i)) (removeN n (kids i)) (removeN n (pars i))) (get_info g m)).
  { intros m. rewrite E. unfold get_info. cbn [infos].
    (* a node that is no child of n does not have n among its parents, and dually: each fold touches every node or changes nothing *)
    rewrite (get_info_l_map _ (fun i => if N.ltb (rank ni) (rank i) then mkNinfo (rank i - 1) (kids i) (pars i) else i)).
    assert (G2 : forall l, l = filter (fun p => negb (N.eqb (fst p) n)) (infos g) ->
      get_info_l (fold_left (fun l c => upd_info_l l c f1) (kids ni) l) m = if N.eqb m n then None else option_map f1 (get_info_l (infos g) m)).
    { intros l ->. rewrite fold_upd_l_get; [rewrite get_info_l_filter; destruct (N.eqb m n); reflexivity|exact Hid1|].
      intros M i. rewrite get_info_l_filter. destruct (N.eqb m n); [discriminate|]. intros Gm.
      unfold f1. rewrite removeN_notin; [destruct i; reflexivity|]. intros Y. apply M. rewrite <- Kn. apply Ws. unfold pars_of, get_info. rewrite Gm. exact Y. }
    rewrite fold_upd_l_get; [|exact Hid2|]; rewrite (G2 _ eq_refl).
    - destruct (N.eqb m n); [reflexivity|]. destruct (get_info_l (infos g) m) as [i|]; [|reflexivity].
      cbn [option_map f1 f2 rank kids pars]. unfold close_gap. destruct (N.ltb (rank ni) (rank i)); reflexivity.
    - intros M i. destruct (N.eqb m n); [discriminate|]. destruct (get_info_l (infos g) m) as [i0|] eqn:Gm; [|discriminate].
      cbn. intros X. injection X as <-. unfold f2, f1. cbn [rank kids pars]. rewrite removeN_notin; [reflexivity|].
      intros Y. apply M. rewrite <- Pn. apply Ws. unfold kids_of, get_info. rewrite Gm. exact Y. }
  repeat split.
  - intros m. unfold live. rewrite GI. destruct (N.eqb m n); [reflexivity|]. destruct (get_info g m); reflexivity.
  - intros m. unfold kids_of. rewrite GI. destruct (N.eqb m n); [reflexivity|]. destruct (get_info g m); reflexivity.
  - intros m. unfold pars_of. rewrite GI. destruct (N.eqb m n); [reflexivity|]. destruct (get_info g m); reflexivity.
  - intros m Hmn. rewrite Rn. unfold rank_of. rewrite GI. rewrite (proj2 (N.eqb_neq m n) Hmn).
    destruct (get_info g m); [reflexivity|]. cbn. destruct (N.ltb (rank ni) 0); reflexivity.
  - intros u v. rewrite E. unfold get_edata. cbn [edata]. rewrite fold_remove_pars, fold_remove_kids.
    fold (get_edata g u v).
    destruct (N.eqb_spec v n) as [->|Hvn]; cbn [andb orb].
    + rewrite orb_true_r. destruct (memN u (pars ni)) eqn:X; [reflexivity|].
      destruct (N.eqb u n && memN n (kids ni)); [reflexivity|].
      apply NE. rewrite Ws, Pn. apply memN_false. exact X.
    + rewrite orb_false_r. destruct (N.eqb_spec u n) as [->|Hun]; cbn [andb]; [|reflexivity].
      destruct (memN v (kids ni)) eqn:X; [reflexivity|]. apply NE. rewrite Kn. apply memN_false. exact X.
Qed.

Lemma remove_node_removes g n :
  WF g -> live g n = true -> removes g (snd (remove_node g n)) (fun u v => negb (N.eqb u n) && negb (N.eqb v n)).
Proof.
  intros W Ln. destruct (remove_node_view g n W Ln) as [_ [_ [VK [VP [_ VE]]]]]. split; [|split].
  - intros u. rewrite VK. destruct (N.eqb u n); cbn [negb andb]; [rewrite filter_false_nil; reflexivity|apply removeN_filter].
  - intros v. rewrite VP. destruct (N.eqb v n); cbn [negb andb].
    + rewrite (filter_ext _ (fun _ => false)) by (intros; apply andb_false_r). rewrite filter_false_nil. reflexivity.
    + rewrite (filter_ext _ (fun y => negb (N.eqb y n))) by (intros; apply andb_true_r). apply removeN_filter.
  - intros u v. rewrite VE. destruct (N.eqb u n); destruct (N.eqb v n); reflexivity.
Qed.

Lemma WF_remove_node g n : WF g -> WF (snd (remove_node g n)).
Proof.
  intros W. destruct (live g n) eqn:Ln.
  2:{ rewrite (remove_node_dead g n Ln). exact W. }
  pose proof (remove_node_removes g n W Ln) as R. destruct (removes_adj g _ _ W R) as [A [B [C D]]].
  pose proof (removes_kids g _ _ R) as KD.
  destruct (remove_node_view g n W Ln) as [_ [LV [_ [_ [RK _]]]]]. destruct (remove_node_frame g n Ln) as [IDS [LA _]].
  set (g' := snd (remove_node g n)) in *. set (rn := rank_of g n) in *.
  destruct W as [Wi Wk Wp Ws Wc We Wj Wr Wl Wt].
  assert (Other : forall u, live g u = true -> u <> n -> rank_of g u <> rn) by (intros u Lu Hun Y; apply Hun; apply Wj; [exact Lu|exact Ln|exact Y]).
  assert (Kept : forall u v, In v (kids_of g' u) -> In v (kids_of g u) /\ u <> n /\ v <> n).
  { intros u v X. apply KD in X. destruct X as [X Y].
    destruct (N.eqb_spec u n) as [|Hu]; [discriminate|]. destruct (N.eqb_spec v n) as [|Hv]; [discriminate|]. split; [exact X|split; assumption]. }
  constructor; [|exact A|exact B|exact C| |exact D| | | |].
  - rewrite IDS. apply NoDup_filter. exact Wi.
  - intros u v X. destruct (Kept u v X) as [Y [Hun Hvn]]. rewrite !LV. destruct (N.eqb_spec u n); [congruence|]. destruct (N.eqb_spec v n); [congruence|].
    apply Wc. exact Y.
  - intros u v. rewrite !LV.
    destruct (N.eqb_spec u n) as [->|Hun]; [discriminate|]. destruct (N.eqb_spec v n) as [->|Hvn]; [discriminate|].
    intros Lu Lv. rewrite (RK u Hun), (RK v Hvn). intros X. apply Wj; [exact Lu|exact Lv|].
    exact (close_gap_inj rn _ _ (Other u Lu Hun) (Other v Lv Hvn) X).
  - intros u. rewrite LV. destruct (N.eqb_spec u n) as [->|Hun]; [discriminate|]. intros Lu. rewrite (RK u Hun), LA.
    exact (close_gap_range rn _ _ (Wr n Ln) (Wr u Lu) (Other u Lu Hun)).
  - assert (X : S (length (infos g')) = length (infos g)).
    { rewrite <- (map_length fst (infos g')), IDS, <- (map_length fst (infos g)). apply length_filter_remove; [exact Wi|].
      apply live_true_iff. exact Ln. }
    rewrite LA, Wl, <- X, Nat2N.inj_succ. lia.
  - intros u v X. destruct (Kept u v X) as [Y [Hun Hvn]]. rewrite (RK u Hun), (RK v Hvn). destruct (Wc u v Y) as [Lu Lv].
    exact (close_gap_lt rn _ _ (Other u Lu Hun) (Wt u v Y)).
Qed.

End WF.
