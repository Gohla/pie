(* C02, idempotence: requiring again with nothing changed executes nothing.
   VC: during a session every task marked consistent has only recorded dependencies that its own checkers accept in the CURRENT
   state (resource contents, outputs of required tasks), and the tasks it requires are consistent as well.  VC is a session
   invariant inside the static class (NoAbort.v), given reflexive checkers (a checker accepts the value it just stamped).
   Hence after a session all tasks it made consistent validate again without any execution in the next session. *)
From Coq Require Import List ZArith Bool Lia.
From PieV Require Import Model.Dag Model.Build Proofs.Local Proofs.DagLib Proofs.DagWF Proofs.InvE Proofs.StoreInv Proofs.Steps
  Proofs.ExecInv Proofs.ExecSession Proofs.Cert Proofs.Stable Proofs.Sim Proofs.NoAbort.
Import ListNotations.
Open Scope N_scope.

Section V.
Variable gen : res -> option task.
Variable wck : rcid -> Prop.
Variable ord : task -> nat.
Variable RC : rcid -> rchecker.
Variable OC : ocid -> ochecker.
Variable P : task -> prog.
Variable sf : rcid -> res -> content -> Z.
Hypothesis HS : forall c env r v, rc_stamp (RC c) env r v = inl (sf c r v).
Hypothesis HWF : forall t, WFP gen wck t [] (P t).
Hypothesis HWO : forall t, WFO ord t (P t).
Hypothesis HRefl : forall c env r v, rc_check (RC c) env r v (sf c r v) = Consistent.
Hypothesis HReflO : forall c o, oc_check (OC c) o (oc_stamp (OC c) o) = true.

Lemma env_preserved e : Preserved RC (fun w => env w = e).
Proof.
  constructor.
  - intros w ev _ H. exact H.
  - intros w t H. destruct (goc_task_gr w t) as [g ->]. exact H.
  - intros w t H. unfold reserve_require_dependency. destruct (cur w) as [s|]; [|exact H].
    destruct (add_dependency_gr w (tn s) (tn t) DReserved) as [g Eg].
    destruct (add_dependency w (tn s) (tn t) DReserved) as [[| |] w']; cbn [snd okO] in *; [|right|left; reflexivity]; subst w'; exact H.
  - intros w t c st H. unfold update_require_dependency. destruct (cur w) as [s|]; [|exact H].
    destruct (get_edata (gr w) (tn s) (tn t)); [exact H|right; exact H].
  - apply lstep_rw. intros w w' H S. rewrite <- H. apply (lstep_fields w w' S).
  - intros w t H. exact H.
  - intros w w0 t o H. exact H.
  - intros w t H. exact H.
  - intros w ev H. exact H.
  - intros w q H. exact H.
  - intros w r H. destruct (goc_res_gr w r) as [g ->]. exact H.
Qed.

Lemma mc_env f w t o w' : make_consistent_td RC OC P f w t = Done o w' -> env w' = env w.
Proof.
  intros Eq. assert (X : okO (fun w0 => env w0 = env w) (make_consistent_td RC OC P f w t)).
  { eapply make_consistent_td_ok; [apply env_preserved|reflexivity]. }
  rewrite Eq in X. exact X.
Qed.
Lemma req_env f w x c o w' : require_with OC (make_consistent_td RC OC P f) w x c = Done o w' -> env w' = env w.
Proof.
  intros Eq. assert (X : okO (fun w0 => env w0 = env w) (require_with OC (make_consistent_td RC OC P f) w x c)).
  { eapply require_with_ok; [apply env_preserved| |apply Local2.td_out|reflexivity]. intros w0 t0 H0. eapply make_consistent_td_ok; [apply env_preserved|exact H0]. }
  rewrite Eq in X. exact X.
Qed.
Lemma chk_env f ds w ok w' : check_deps RC OC (make_consistent_td RC OC P f) ds w = Done ok w' -> env w' = env w.
Proof.
  intros Eq. assert (X : okO (fun w0 => env w0 = env w) (check_deps RC OC (make_consistent_td RC OC P f) ds w)).
  { eapply check_deps_ok; [apply env_preserved| |apply Local2.td_out|reflexivity]. intros w0 t0 H0. eapply make_consistent_td_ok; [apply env_preserved|exact H0]. }
  rewrite Eq in X. exact X.
Qed.

Definition DepOK (w : world) (dp : dep) : Prop :=
  match dp with
  | DReserved => False
  | DRequire y c st => memN y (consistent w) = true /\ exists oy, get_task_output w y = Some oy /\ oc_check (OC c) oy st = true
  | DRead r c st | DWrite r c st => rc_check (RC c) (env w) r (get_content w r) st = Consistent
  end.
Definition RowV (w : world) (x : task) : Prop := forall d dp, row w x d = Some dp -> DepOK w dp.
Definition VC (w : world) : Prop := forall x, memN x (consistent w) = true -> RowV w x.

Definition dep_res (dp : dep) : option res := match dp with DRead r _ _ | DWrite r _ _ => Some r | _ => None end.

Lemma dep_res_node w x d dp r : StoreOK w -> row w x d = Some dp -> dep_res dp = Some r -> d = rn r.
Proof. intros [_ [T _]] R Er. destruct (T _ _ _ R) as [_ TG]. destruct dp; cbn in Er, TG; inversion Er; congruence. Qed.
Lemma res_dep_gen w x r dp : StoreOK w -> QR gen ord w x -> row w x (rn r) = Some dp ->
  match dp with
  | DWrite _ _ _ => gen r = Some x
  | DRead _ _ _ => gen r = None \/ exists g, gen r = Some g /\ before (tn g) (rn r) (kidsT w x)
  | _ => False
  end.
Proof.
  intros [_ [T _]] [_ [Q2 Q3]] R. destruct (T _ _ _ R) as [_ TG]. destruct dp as [|y c st|r' c st|r' c st]; cbn in TG.
  - rewrite rn_odd in TG. discriminate.
  - exact (tn_rn _ _ (eq_sym TG)).
  - apply (Q3 r _ R eq_refl).
  - apply (Q2 r _ R eq_refl).
Qed.
Lemma valid_require w x g l : StoreOK w -> In (tn g) l -> (forall d, In d l -> In d (kidsT w x)) ->
  (forall d dp, In d l -> row w x d = Some dp -> DepOK w dp) -> memN g (consistent w) = true.
Proof.
  intros [W [T _]] Ig Sub V. pose proof (Sub _ Ig) as Ik. apply (wf_edata _ W) in Ik. unfold kidsT in Ik.
  destruct (get_edata (gr w) (tn x) (tn g)) as [dp|] eqn:G; [|contradiction].
  pose proof (V (tn g) dp Ig G) as D. destruct (T _ _ _ G) as [_ TG].
  destruct dp as [|z c st|r2 c st|r2 c st]; cbn in D, TG; [contradiction| |exfalso; exact (tn_rn _ _ TG)|exfalso; exact (tn_rn _ _ TG)].
  apply tn_inj in TG. subst z. exact (proj1 D).
Qed.

Lemma depok_keep w w' dp : env w' = env w -> cons_mono w w' ->
  (forall y, memN y (consistent w) = true -> get_task_output w' y = get_task_output w y) ->
  (forall r, dep_res dp = Some r -> get_content w' r = get_content w r) -> DepOK w dp -> DepOK w' dp.
Proof.
  intros E M O C. destruct dp as [|y c st|r c st|r c st]; cbn [DepOK dep_res] in *.
  - tauto.
  - intros [Y [oy [A B]]]. split; [apply M; exact Y|]. exists oy. split; [rewrite O by exact Y; exact A|exact B].
  - rewrite E, (C r eq_refl). tauto.
  - rewrite E, (C r eq_refl). tauto.
Qed.

Lemma row_stab S w x r dp : StoreOK w -> QR gen ord w x -> RowV w x -> (memN x (consistent w) = true \/ In x S) ->
  row w x (rn r) = Some dp -> StabC gen S w r.
Proof.
  intros H Qx RV Hx R. pose proof (res_dep_gen w x r dp H Qx R) as G. destruct dp as [|y c st|r' c st|r' c st]; try contradiction.
  - destruct G as [E|[g [E B]]]; [left; exact E|right; exists g; split; [exact E|left]].
    apply (valid_require w x g (kidsT w x) H (before_in _ _ _ B)); [intros d I0; exact I0|intros d dp0 _; apply RV].
  - right. exists x. split; [exact G|exact Hx].
Qed.

Notation mc := (make_consistent_td RC OC P).

Lemma mc_seg f w t S o w' : StoreOK w -> Inv2 w -> Chain w S -> entry_ok w S t -> Q gen ord w -> (ord t < f)%nat -> mc f w t = Done o w' ->
  (exists seg, Post S [] [] w w' seg) /\ memN t (consistent w') = true /\ get_task_output w' t = Some o /\
  CF gen S w w' /\ Q gen ord w' /\ env w' = env w.
Proof.
  intros H J0 C E Hq Hf Eq.
  pose proof (make_consistent_td_spec RC OC P f w t S H J0 C E) as A.
  pose proof (make_consistent_td_CF gen wck RC OC P sf HS HWF f w t S H J0 C E) as B.
  pose proof (make_consistent_td_Q gen wck ord RC OC P sf HS HWF HWO f w t S H J0 C E Hq Hf) as D.
  rewrite Eq in *. cbn in A, B, D. destruct A as [A1 [_ [A3 A4]]].
  split; [exact A1|]. split; [exact A3|]. split; [exact A4|]. split; [exact B|]. split; [exact D|apply (mc_env f w t o w' Eq)].
Qed.

(* a computation that respects the content frame keeps the valid row of a task that is consistent or on the stack: its row
   stays (it is not executed), the tasks it requires stay consistent with their outputs, the resources it reads are stable *)
Lemma keep_rowv S G w w' seg x : Post S G [] w w' seg -> CF gen S w w' -> env w' = env w ->
  StoreOK w -> QR gen ord w x -> RowV w x -> ~ In x G -> (memN x (consistent w) = true \/ In x S) -> RowV w' x.
Proof.
  intros P1 CFw E H Qx RV NG Hx d dp R'.
  assert (Rows : forall d0, row w' x d0 = row w x d0).
  { intros d0. destruct Hx as [Hx|Hx]; [|apply (po_eframe _ _ _ _ _ _ P1); exact Hx].
    apply (po_others _ _ _ _ _ _ P1 x); [|exact NG]. intros Z. destruct (po_fresh _ _ _ _ _ _ P1 x Z) as [_ [_ Z']]. congruence. }
  rewrite Rows in R'. apply (depok_keep w w' dp E (po_mono _ _ _ _ _ _ P1)); [| |apply (RV d dp R')].
  - intros y Y. destruct (in_dec N.eq_dec y G) as [I0|NI]; [apply (po_oframe _ _ _ _ _ _ P1); right; exact I0|].
    apply (post_cons_out _ _ _ _ _ _ y P1 NI Y).
  - intros r Er. apply (proj1 CFw). pose proof (dep_res_node w x d dp r H R' Er). subst d. apply (row_stab S w x r dp H Qx RV Hx R').
Qed.
Lemma seg_keep S w w' seg x : Post S [] [] w w' seg -> CF gen S w w' -> env w' = env w ->
  StoreOK w -> QR gen ord w x -> RowV w x -> (memN x (consistent w) = true \/ In x S) -> RowV w' x.
Proof. intros P1 CFw E H Qx RV. apply (keep_rowv S [] w w' seg x P1 CFw E H Qx RV). intros []. Qed.

Lemma same_depok w w' dp : Same w w' -> DepOK w dp -> DepOK w' dp.
Proof.
  intros Sm. apply (depok_keep w w' dp (same_env _ _ Sm)); [intros y Y; rewrite (same_cons _ _ Sm); exact Y| |].
  - intros y _. unfold get_task_output. rewrite (same_outs _ _ Sm). reflexivity.
  - intros r _. apply (same_content _ _ Sm).
Qed.
Lemma rows_same_rowv w w' a : Same w w' -> (forall d, row w' a d = row w a d) -> RowV w a -> RowV w' a.
Proof. intros Sm R RV d dp R'. rewrite R in R'. apply (same_depok w w' dp Sm). apply (RV d dp R'). Qed.
Lemma leaf_rowv t w w' x : Leaf t w w' -> Same w w' -> x <> t -> RowV w x -> RowV w' x.
Proof.
  intros L Sm Hne. apply (rows_same_rowv w w' x Sm). intros d. apply (lf_eother _ _ _ L). intros E. apply tn_inj in E. contradiction.
Qed.
Lemma same_rowv w w' x : gr w' = gr w -> Same w w' -> RowV w x -> RowV w' x.
Proof. intros G Sm. apply (rows_same_rowv w w' x Sm). intros d. unfold row. rewrite G. reflexivity. Qed.
Lemma VC_same w w' : gr w' = gr w -> Same w w' -> VC w -> VC w'.
Proof. intros G Sm V x X. rewrite (same_cons _ _ Sm) in X. apply (same_rowv w w' x G Sm). apply V. exact X. Qed.

Definition VCMC (f : nat) : Prop :=
  forall w t S o w', StoreOK w -> Inv2 w -> Chain w S -> entry_ok w S t -> Q gen ord w -> VC w -> (ord t < f)%nat ->
    mc f w t = Done o w' -> VC w'.

Lemma require_done f t S w x c o w' :
  Pre t S w -> Q gen ord w -> (ord x < ord t)%nat -> ~ In (tn x) (kidsT w t) ->
  require_with OC (mc f) w x c = Done o w' ->
  exists w3 w4, Leaf t w w3 /\ Same w w3 /\ StoreOK w3 /\ Inv2 w3 /\ Chain w3 (t :: S) /\ edge w3 t x /\ Q gen ord w3 /\
    mc f w3 x = Done o w4 /\ Same w4 w' /\
    (forall a, a <> t -> kidsT w' a = kidsT w4 a /\ forall d, row w' a d = row w4 a d).
Proof.
  intros PR Hq Ho Hnew Eq.
  destruct (req_done OC (mc f) t S w x c o w' (make_consistent_td_spec RC OC P f) PR Eq) as [w3 [w4 [AD L3 Sw3 E3 C3 J3 MA S4 Rows]]].
  exists w3, w4. split; [exact L3|]. split; [exact Sw3|]. split; [apply (lf_ok _ _ _ L3)|]. split; [exact J3|]. split; [exact C3|]. split; [exact E3|].
  split; [apply (Q_reserve gen ord t w w3 x (leaf_others t w w3 L3) (reserve_row t w x c w3 (pre_ok _ _ _ PR) Hnew AD) Ho Hq)|].
  split; [exact MA|]. split; [exact S4|exact Rows].
Qed.

Lemma req_VC f t S w x c o w' : VCMC f ->
  Pre t S w -> Q gen ord w -> (ord x < ord t)%nat -> ~ In (tn x) (kidsT w t) -> (ord t <= f)%nat ->
  VC w -> RowV w t -> memN t (consistent w) = false ->
  require_with OC (mc f) w x c = Done o w' -> VC w' /\ RowV w' t.
Proof.
  intros IH PR Hq Ho Hnew Hf V RVt Hnc Eq.
  destruct (require_done f t S w x c o w' PR Hq Ho Hnew Eq) as [w3 [w4 [L3 [Sw3 [H3 [J3 [C3 [E3 [Q3 [MA [S4 Rows]]]]]]]]]]].
  destruct (mc_seg f w3 x (t :: S) o w4 H3 J3 C3 E3 Q3 ltac:(lia) MA) as [[s4 P4] [Cx4 [Ox4 [CF4 [Q4 E4]]]]].
  assert (V3 : VC w3).
  { intros y Y. rewrite (same_cons _ _ Sw3) in Y. apply (leaf_rowv t w w3 y L3 Sw3); [intros ->; congruence|apply V; exact Y]. }
  pose proof (IH w3 x (t :: S) o w4 H3 J3 C3 E3 Q3 V3 ltac:(lia) MA) as V4.
  assert (Hnc4 : memN t (consistent w4) = false).
  { destruct (memN t (consistent w4)) eqn:Z; [|reflexivity]. apply (po_keep _ _ _ _ _ _ P4) in Z; [|left; left; reflexivity].
    rewrite (same_cons _ _ Sw3) in Z. congruence. }
  split.
  - intros y Y. rewrite (same_cons _ _ S4) in Y. assert (Hne : y <> t) by (intros ->; congruence).
    apply (rows_same_rowv w4 w' y S4 (proj2 (Rows y Hne))). apply V4. exact Y.
  - (* the executing task's record: old entries kept, the new one valid by reflexivity *)
    pose proof (require_with_row OC (mc f) t S (make_consistent_td_spec RC OC P f) w x c o w' PR Hnew Eq) as [RK [RN RO]].
    pose proof (req_pre t S _ w x c (require_with_spec OC (mc f) t S (make_consistent_td_spec RC OC P f)) PR) as SP.
    rewrite Eq in SP. destruct SP as [[sg PS] _].
    pose proof (require_with_CF_strong gen OC (mc f) t S (make_consistent_td_spec RC OC P f) (make_consistent_td_CF gen wck RC OC P sf HS HWF f) w x c PR) as CFs.
    rewrite Eq in CFs. cbn in CFs.
    intros d dp R'. destruct (N.eq_dec d (tn x)) as [->|Hd].
    + rewrite RN in R'. inversion R'; subst dp. cbn [DepOK]. split; [rewrite (same_cons _ _ S4); exact Cx4|].
      exists o. split; [unfold get_task_output; rewrite (same_outs _ _ S4); exact Ox4|apply HReflO].
    + rewrite RO in R' by exact Hd.
      apply (depok_keep w w' dp (req_env f w x c o w' Eq) (po_mono _ _ _ _ _ _ PS)); [| |apply (RVt d dp R')].
      * intros y Y. apply (post_cons_out _ _ _ _ _ _ y PS ltac:(intros [E|[]]; subst y; congruence) Y).
      * intros r Er. apply (proj1 CFs). pose proof (dep_res_node w t d dp r (pre_ok _ _ _ PR) R' Er). subst d.
        apply (row_stab (t :: S) w t r dp (pre_ok _ _ _ PR) (Hq t) RVt (or_intror (or_introl eq_refl)) R').
Qed.

Notation req f := (require_with OC (mc f)).

Lemma req_step f t S w x c o w' : (ord t <= f)%nat ->
  Pre t S w -> live (gr w) (tn t) = true -> Q gen ord w -> (ord x < ord t)%nat -> ~ In (tn x) (kidsT w t) ->
  req f w x c = Done o w' ->
  Pre t S w' /\ live (gr w') (tn t) = true /\ Q gen ord w' /\ RowStep t w w' (tn x) (DRequire x c (oc_stamp (OC c) o)).
Proof.
  intros Hf PR Lt Hq Ho Hnew Eq.
  pose proof (req_pre t S _ w x c (require_with_spec OC (mc f) t S (make_consistent_td_spec RC OC P f)) PR) as SP.
  pose proof (require_with_Q gen ord OC (mc f) f t S (make_consistent_td_spec RC OC P f) (make_consistent_td_Q gen wck ord RC OC P sf HS HWF HWO f) Hf w x c PR Lt Hq Ho Hnew) as RQ.
  rewrite Eq in SP, RQ. cbn in RQ.
  split; [eapply (pre_step t S w); eassumption|]. split; [eapply (step_live t S w); eassumption|]. split; [exact RQ|].
  apply (require_with_row OC (mc f) t S (make_consistent_td_spec RC OC P f) w x c o w' PR Hnew Eq).
Qed.

Lemma rw_step {X} (op : rwop X) t S w xv w' :
  Pre t S w -> live (gr w) (tn t) = true -> Q gen ord w -> ~ In (rn (rw_res op)) (kidsT w t) ->
  (if rw_writes op then gen (rw_res op) = Some t
   else gen (rw_res op) = None \/ exists g, gen (rw_res op) = Some g /\ In (tn g) (kidsT w t)) ->
  run_rw RC op w = Done xv w' ->
  xv = rw_ans RC op (get_content w (rw_res op)) /\ Pre t S w' /\ live (gr w') (tn t) = true /\ Q gen ord w' /\
  RowStep t w w' (rn (rw_res op)) (rw_rec sf op (get_content w (rw_res op))) /\ Leaf t w w' /\
  Wrote w w' (rw_res op) (rw_val op (get_content w (rw_res op))).
Proof.
  intros PR Lt Hq Hx Hg Eq.
  destruct (rw_pre t S w _ PR (run_rw_chain RC op w)) as [LF SP].
  destruct (run_rw_row RC sf HS op w t xv w' (pre_ok _ _ _ PR) (pre_cur _ _ _ PR) Hx Eq) as [Ex RS].
  destruct (run_rw_done RC sf HS op w t xv w' (pre_cur _ _ _ PR) Eq) as [_ Wr].
  rewrite Eq in *. cbn [leafO] in LF.
  split; [exact Ex|]. split; [eapply (pre_step t S w); eassumption|]. split; [eapply (step_live t S w); eassumption|].
  split; [apply (Q_rw gen ord sf op t w w' _ LF RS Hg Hq)|split; [exact RS|split; [exact LF|exact Wr]]].
Qed.

Lemma rw_rec_ok {X} (op : rwop X) w v : get_content w (rw_res op) = rw_val op v -> DepOK w (rw_rec sf op v).
Proof. destruct op; cbn; intros ->; apply HRefl. Qed.

Lemma exec_prog_VC f t S : VCMC f -> (ord t <= f)%nat ->
  forall p w o w', Pre t S w -> live (gr w) (tn t) = true -> Q gen ord w -> VC w -> RowV w t -> memN t (consistent w) = false ->
    WFP gen wck t (kidsT w t) p -> WFO ord t p ->
    exec_prog RC OC (req f) p w = Done o w' -> VC w' /\ RowV w' t /\ memN t (consistent w') = false /\ Q gen ord w' /\ StoreOK w'.
Proof.
  intros IH Hf. induction p as [o0| |x c k IHp|X op k IHp] using prog_rw_ind; intros w o w' PR Lt Hq V RVt Hnc HW HO Eq.
  - inversion Eq; subst. split; [exact V|]. split; [exact RVt|]. split; [exact Hnc|]. split; [exact Hq|apply (pre_ok _ _ _ PR)].
  - discriminate.
  - destruct (WFP_req_inv gen wck t _ x c k HW) as [Hx Hk]. destruct (WFO_req_inv ord t x c k HO) as [Hox Hok]. cbn [exec_prog] in Eq.
    apply bind_done in Eq as (ox & w1 & RQ & Eq).
    destruct (req_step f t S w x c ox w1 Hf PR Lt Hq Hox Hx RQ) as [PR1 [Lt1 [Q1 RS]]].
    destruct (req_VC f t S w x c ox w1 IH PR Hq Hox Hx Hf V RVt Hnc RQ) as [V1 RV1].
    assert (Hnc1 : memN t (consistent w1) = false).
    { pose proof (req_pre t S _ w x c (require_with_spec OC (mc f) t S (make_consistent_td_spec RC OC P f)) PR) as SP.
      rewrite RQ in SP. apply (step_nc t S w ox w1 _ SP Hnc). }
    apply (IHp (oc_view (OC c) ox) w1 o w' PR1 Lt1 Q1 V1 RV1 Hnc1); [rewrite (proj1 RS); apply Hk|apply Hok|exact Eq].
  - destruct (WFP_rw gen wck t _ op k HW) as [Hx [Hg [_ Hk]]]. pose proof (WFO_rw ord t op k HO) as Hok. rewrite exec_prog_rw in Eq.
    apply bind_done in Eq as (xv & w1 & RQ & Eq).
    destruct (rw_step op t S w xv w1 PR Lt Hq Hx Hg RQ) as [-> [PR1 [Lt1 [Q1 [RS [LF Wr]]]]]].
    pose proof Wr as [W1 [W2 [W3 [W4 W5]]]].
    (* the rows of the consistent tasks: the operation respects the content frame *)
    assert (V1 : VC w1).
    { intros y Y. rewrite W4 in Y. pose proof (chain_head_notin _ _ _ (pre_chain _ _ _ PR)) as Ht.
      destruct (leaf_post S t w w1 LF Ht (pre_out _ _ _ PR)) as [sg PL].
      pose proof (run_rw_CF gen RC sf HS S t op w (pre_cur _ _ _ PR) ltac:(destruct op; [exact Logic.I|exact Hg|exact Hg]) Hnc Ht) as CFl. rewrite RQ in CFl.
      apply (keep_rowv S [t] w w1 sg y PL CFl W3 (pre_ok _ _ _ PR) (Hq y) (V y Y)); [intros [->|[]]; congruence|left; exact Y]. }
    assert (RV1 : RowV w1 t).
    { destruct RS as [_ [RN RO]]. intros d dp R'. destruct (N.eq_dec d (rn (rw_res op))) as [->|Hd].
      - rewrite RN in R'. inversion R'; subst dp. apply rw_rec_ok. exact W1.
      - rewrite RO in R' by exact Hd. apply (depok_keep w w1 dp W3); [intros z Z; rewrite W4; exact Z| | |apply (RVt d dp R')].
        + intros z _. unfold get_task_output. rewrite W5. reflexivity.
        + intros r0 Er. apply W2. intros ->. apply Hd. apply (dep_res_node w t d dp _ (pre_ok _ _ _ PR) R' Er). }
    apply (IHp (rw_ans RC op (get_content w (rw_res op))) w1 o w' PR1 Lt1 Q1 V1 RV1 ltac:(rewrite W4; exact Hnc)); [rewrite (proj1 RS); apply Hk|apply Hok|exact Eq].
Qed.

Lemma execute_with_VC f t S : VCMC f -> (ord t <= f)%nat ->
  forall w o w', Top t S w -> Q gen ord w -> VC w -> execute_with RC OC P (req f) w t = Done o w' ->
    VC w' /\ RowV w' t /\ memN t (consistent w') = false /\ Q gen ord w' /\ get_task_output w' t = Some o.
Proof.
  intros IH Hf w o w' T Hq V Eq. pose proof T as [H _ _ _ Hn Lt].
  destruct (exec_start_pre t S w T) as [PR2 [Hn2 [KT2 [R2 C2]]]]. rewrite execute_with_eq in Eq.
  set (w2 := startw w t) in *.
  destruct (reset_task_facts w t H) as [_ K1 L1 _ _ _ E1 E0 _ O1].
  assert (Lt2 : live (gr w2) (tn t) = true) by (apply L1; exact Lt).
  pose proof (Q_exec_start gen ord w t H Hq) as Q2. fold w2 in Q2.
  assert (V2 : VC w2).
  { intros y Y. rewrite C2 in Y. assert (Hne : y <> t) by (intros ->; congruence).
    assert (X : tn y <> tn t) by (intros E; apply tn_inj in E; contradiction).
    intros d dp R'. unfold row in R'. change (gr w2) with (gr (reset_task w t)) in R'. rewrite E1 in R' by exact X.
    apply (depok_keep w w2 dp eq_refl); [intros z Z; rewrite C2; exact Z| | |apply (V y Y d dp R')].
    - intros z Z. change (get_task_output (reset_task w t) z = get_task_output w z). apply O1. intros ->. congruence.
    - intros r0 _. unfold get_content. rewrite R2. reflexivity. }
  assert (RV2 : RowV w2 t) by (intros d dp R'; unfold row in R'; change (gr w2) with (gr (reset_task w t)) in R'; rewrite E0 in R'; discriminate).
  assert (HW2 : WFP gen wck t (kidsT w2 t) (P t)) by (rewrite KT2; apply HWF).
  apply bind_done in Eq as (o3 & w3 & XQ & Eq).
  destruct (exec_prog_VC f t S IH Hf (P t) w2 o3 w3 PR2 Lt2 Q2 V2 RV2 Hn2 HW2 (HWO t) XQ) as [V3 [RV3 [Hn3 [Q3 H3]]]].
  inversion Eq; subst o w'. clear Eq.
  set (w4 := set_task_output (set_cur (emit w3 (EExecEnd t o3)) (cur (reset_task w t))) t o3).
  assert (O4 : forall z, z <> t -> get_task_output w4 z = get_task_output w3 z).
  { intros z Hz. exact (output_set_other _ t o3 z Hz). }
  assert (KP : forall y, RowV w3 y -> RowV w4 y).
  { intros y RVy d dp R'. apply (depok_keep w3 w4 dp eq_refl); [intros z Z; exact Z| |intros r0 _; reflexivity|apply (RVy d dp R')].
    intros z Z. apply O4. intros ->. congruence. }
  split; [intros y Y; apply KP; apply V3; exact Y|]. split; [apply KP; exact RV3|]. split; [exact Hn3|].
  split; [apply (Q_same gen ord w3); [reflexivity|exact Q3]|].
  exact (output_set_eq _ t o3).
Qed.

Lemma nodup_split_unique (b : node) : forall (m1 m2 p1 p2 : list node),
  NoDup (m1 ++ b :: m2) -> m1 ++ b :: m2 = p1 ++ b :: p2 -> m1 = p1.
Proof.
  induction m1 as [|a m1 IH]; intros m2 p1 p2 ND E; destruct p1 as [|q p1]; cbn in *.
  - reflexivity.
  - inversion E; subst. exfalso. inversion ND as [|? ? N1 N2]; subst. apply N1. apply in_or_app. right. left. reflexivity.
  - inversion E; subst. exfalso. inversion ND as [|? ? N1 N2]; subst. apply N1. apply in_or_app. right. left. reflexivity.
  - inversion E; subst. f_equal. inversion ND; subst. eapply IH; eassumption.
Qed.
Lemma before_prefix (a b : node) l1 l2 : NoDup (l1 ++ l2) -> before a b (l1 ++ l2) -> In b l1 -> In a l1.
Proof.
  intros ND [m1 [m2 [E I]]] Hb. apply in_split in Hb. destruct Hb as [p1 [p2 ->]].
  rewrite <- app_assoc in E, ND. cbn [app] in E, ND.
  assert (X : p1 = m1) by (eapply nodup_split_unique; [exact ND|exact E]).
  subst m1. apply in_or_app. left. exact I.
Qed.

Lemma prefix_stab t S w l1 l2 d r dp : StoreOK w -> QR gen ord w t -> kidsT w t = l1 ++ l2 ->
  (forall d0 dp0, In d0 l1 -> row w t d0 = Some dp0 -> DepOK w dp0) ->
  In d l1 -> row w t d = Some dp -> dep_res dp = Some r -> StabC gen (t :: S) w r.
Proof.
  intros H Qt K V1 Hd R Er. pose proof (dep_res_node w t d dp r H R Er). subst d.
  pose proof (res_dep_gen w t r dp H Qt R) as G. destruct dp as [|y c st|r' c st|r' c st]; try contradiction.
  - destruct G as [E|[g [E B]]]; [left; exact E|right; exists g; split; [exact E|left]].
    apply (valid_require w t g l1 H); [|intros d0 I0; rewrite K; apply in_or_app; left; exact I0|exact V1].
    apply (before_prefix (tn g) (rn r) l1 l2); [rewrite <- K; apply (wf_kn _ (proj1 H))|rewrite <- K; exact B|exact Hd].
  - right. exists t. split; [exact G|right; left; reflexivity].
Qed.

(* the validation loop of t keeps the session invariants, and when it answers true every recorded dependency of t is valid in
   the store it ends in (the prefix l1 checked before stays valid: its resources are stable while t is on the stack).  Post says
   what else holds there: nothing recorded for t has changed, t is not marked *)
Definition ChkOut (t : task) (S : list task) (L : list node) (w : world) (m : outcome bool) : Prop :=
  holds (fun ok w' => (exists seg, Post (t :: S) [] [] w w' seg) /\ Q gen ord w' /\ VC w' /\
                      (ok = true -> forall d dp, In d L -> row w' t d = Some dp -> DepOK w' dp)) (fun _ _ => True) m.

Lemma check_deps_VC f t S : VCMC f -> (ord t <= f)%nat ->
  forall l2 l1 w, kidsT w t = l1 ++ l2 ->
    StoreOK w -> Inv2 w -> Chain w (t :: S) -> Q gen ord w -> VC w ->
    (forall d dp, In d l1 -> row w t d = Some dp -> DepOK w dp) ->
    (forall d, In d l2 -> dep_ok w t (row w t d)) ->
    ChkOut t S (l1 ++ l2) w (check_deps RC OC (mc f) (map (row w t) l2) w).
Proof.
  intros IH Hf. induction l2 as [|d l2' IHl]; intros l1 w K H J0 C Hq V V1 Hdo; cbn [map check_deps].
  - split; [exists []; apply post_refl; exact H|]. split; [exact Hq|]. split; [exact V|]. rewrite app_nil_r. intros _ d dp Hd R. exact (V1 d dp Hd R).
  - destruct (Hdo d (or_introl eq_refl)) as [dp [Ed [NRs HX]]]. rewrite Ed.
    assert (STOP : forall a3 s3, Post (t :: S) [] [] w a3 s3 -> Q gen ord a3 -> VC a3 -> ChkOut t S (l1 ++ d :: l2') w (Done false a3)).
    { intros a3 s3 P3 Q3 V3. split; [exists s3; exact P3|]. split; [exact Q3|]. split; [exact V3|discriminate]. }
    (* the dependency validated in a3: the loop goes on from a3, with d added to the validated prefix *)
    assert (REC : forall a3 s3, Post (t :: S) [] [] w a3 s3 -> Q gen ord a3 -> VC a3 ->
              (forall d0 dp0, In d0 l1 -> row w t d0 = Some dp0 -> DepOK a3 dp0) -> DepOK a3 dp ->
              ChkOut t S (l1 ++ d :: l2') w (check_deps RC OC (mc f) (map (row w t) l2') a3)).
    { intros a3 s3 P3 Q3 V3 V13 Vd.
      assert (K3 : kidsT a3 t = kidsT w t) by (apply (po_frame _ _ _ _ _ _ P3); left; reflexivity).
      assert (R3 : forall d0, row a3 t d0 = row w t d0) by (intros d0; apply (po_eframe _ _ _ _ _ _ P3); left; reflexivity).
      destruct (check_deps_next t S (map (row w t) l2') w a3 s3 P3 J0 C) as [H3 [J3 [C3 HE3]]].
      { intros d1 I1. apply in_map_iff in I1. destruct I1 as [d2 [<- I2]]. apply Hdo. right. exact I2. }
      rewrite <- (map_ext (row a3 t) (row w t) R3).
      unfold ChkOut. eapply holds_mono; [apply (IHl (l1 ++ [d]) a3); try assumption| |trivial].
      - rewrite K3, K, <- app_assoc. reflexivity.
      - intros d0 dp0 I0 R0. rewrite R3 in R0. apply in_app_or in I0. destruct I0 as [I0|[<-|[]]]; [apply (V13 d0 dp0 I0 R0)|].
        rewrite Ed in R0. inversion R0; subst dp0. exact Vd.
      - intros d0 I0. rewrite R3. apply HE3, in_map, I0.
      - intros ok w' _ [[s4 P4] [Q4 [V4 A4]]]. split; [exists (s3 ++ s4); eapply post_seq; eassumption|]. split; [exact Q4|]. split; [exact V4|].
        rewrite <- app_assoc in A4. exact A4. }
    (* a dependency on a resource, whichever of the two kinds *)
    assert (Res : forall r c st, (forall a, DepOK a dp <-> rc_check (RC c) (env a) r (get_content a r) st = Consistent) ->
              ChkOut t S (l1 ++ d :: l2') w (check_deps RC OC (mc f) (Some (DRead r c st) :: map (row w t) l2') w)).
    { intros r c st Dd. cbn [check_deps]. unfold check_resource_td. cbv zeta.
      set (a1 := emit w (ECheckResStart r c st)).
      set (xx := rc_check (RC c) (env a1) r (get_content a1 r) st).
      set (a2 := emit a1 (ECheckResEnd r c st xx)).
      assert (Sa : Same w a2) by (apply Same_struct; reflexivity).
      assert (P2 : Post (t :: S) [] [] w a2 ([ECheckResStart r c st] ++ [ECheckResEnd r c st xx])) by (eapply post_seq; apply post_emit; try exact H; exact Logic.I).
      assert (Q2 : Q gen ord a2) by (apply (Q_same gen ord w); [reflexivity|exact Hq]). pose proof (VC_same w a2 eq_refl Sa V) as V2.
      destruct xx as [| |e] eqn:XX; cbv iota beta.
      - apply (REC a2 _ P2 Q2 V2); [|apply Dd; exact XX]. intros d0 dp0 I0 R0. apply (same_depok w a2 dp0 Sa). apply (V1 d0 dp0 I0 R0).
      - exact (STOP a2 _ P2 Q2 V2).
      - apply (STOP (push_err a2 e) _ (post_seq _ _ _ _ _ _ _ _ P2 (post_push_err _ _ a2 e (po_ok _ _ _ _ _ _ P2)))); [exact Q2|].
        apply (VC_same a2); [reflexivity|apply Same_struct; reflexivity|exact V2]. }
    destruct dp as [|x c st|r c st|r c st]; [congruence| |apply (Res r c st); intros a; reflexivity|apply (Res r c st); intros a; reflexivity].
    set (a1 := emit w (ECheckTaskStart x c st)).
    assert (Q1 : Q gen ord a1) by (apply (Q_same gen ord w); [reflexivity|exact Hq]).
    assert (Va1 : VC a1) by (apply (VC_same w a1); [reflexivity|apply Same_struct; reflexivity|exact V]).
    pose proof (chain_same w a1 _ eq_refl C) as C1.
    assert (E1 : entry_ok a1 (t :: S) x) by (cbn; apply (HX x c st eq_refl)).
    assert (Ox : (ord x < ord t)%nat) by (apply (proj1 (Hq t)); apply (HX x c st eq_refl)).
    destruct (mc f a1 x) as [ox a2|k a2|] eqn:MA; cbn [bind holds]; [|exact Logic.I|exact Logic.I].
    destruct (mc_seg f a1 x (t :: S) ox a2 H J0 C1 E1 Q1 ltac:(lia) MA) as [[s2 P2] [Cx2 [Ox2 [CF2 [Q2 E2]]]]].
    pose proof (IH a1 x (t :: S) ox a2 H J0 C1 E1 Q1 Va1 ltac:(lia) MA) as V2.
    set (a3 := emit a2 (ECheckTaskEnd x c st (negb (oc_check (OC c) ox st)))).
    assert (P3 : Post (t :: S) [] [] w a3 ([ECheckTaskStart x c st] ++ s2 ++ [ECheckTaskEnd x c st (negb (oc_check (OC c) ox st))])).
    { eapply post_seq; [apply post_emit; [exact H|exact Logic.I]|]. eapply post_seq; [exact P2|]. apply post_emit; [apply (po_ok _ _ _ _ _ _ P2)|exact Logic.I]. }
    assert (Q3 : Q gen ord a3) by (apply (Q_same gen ord a2); [reflexivity|exact Q2]).
    assert (V3 : VC a3) by (apply (VC_same a2 a3); [reflexivity|apply Same_struct; reflexivity|exact V2]).
    destruct (oc_check (OC c) ox st) eqn:OK1; [|exact (STOP a3 _ P3 Q3 V3)].
    apply (REC a3 _ P3 Q3 V3); [|cbn [DepOK]; split; [exact Cx2|exists ox; split; [exact Ox2|exact OK1]]].
    (* the validated prefix: its resources are stable while t is on the stack *)
    intros d0 dp0 I0 R0. apply (depok_keep w a3 dp0); [exact E2|apply (po_mono _ _ _ _ _ _ P2)| | |apply (V1 d0 dp0 I0 R0)].
    + intros y Y. apply (post_cons_out _ _ _ _ _ _ y P2 ltac:(intros []) Y).
    + intros r Er. apply (proj1 CF2). apply (prefix_stab t S w l1 (d :: l2') d0 r dp0 H (Hq t) K V1 I0 R0 Er).
Qed.

Lemma mark_VC w t : VC w -> RowV w t -> VC (mark_consistent w t).
Proof.
  intros V RVt y Y. unfold mark_consistent in Y. cbn [consistent set_consistent] in Y. rewrite memN_cons in Y.
  assert (KP : forall x, RowV w x -> RowV (mark_consistent w t) x).
  { intros x RVx d dp R'. apply (depok_keep w (mark_consistent w t) dp eq_refl); [|intros; reflexivity|intros; reflexivity|apply (RVx d dp R')].
    intros z Z. unfold mark_consistent. cbn [consistent set_consistent]. rewrite memN_cons, Z. apply orb_true_r. }
  destruct (N.eq_dec y t) as [E|Hne]; [subst y; apply KP; exact RVt|]. rewrite (proj2 (N.eqb_neq y t) Hne) in Y. apply KP. apply V. exact Y.
Qed.

Theorem make_consistent_td_VC : forall f, VCMC f.
Proof.
  induction f as [|f IH]; intros w t S o w' H J0 C E Hq V Hf Eq; [discriminate|].
  destruct (mc_course RC OC P f w t S (make_consistent_td_spec RC OC P f) H J0 C E) as [_ MC]. set (w0 := get_or_create_task_node w t) in *.
  assert (Sm0 : Same w w0) by apply Same_goc_task.
  assert (Q0 : Q gen ord w0) by (apply Q_goc_task; exact Hq).
  assert (V0 : VC w0).
  { intros y Y. rewrite (same_cons _ _ Sm0) in Y. apply (rows_same_rowv w w0 y Sm0 (proj2 (goc_task_row w t y))). apply V. exact Y. }
  assert (EM : forall w1, Top t S w1 -> Q gen ord w1 -> VC w1 -> exec_mark RC OC P (req f) w1 t = Done o w' -> VC w').
  { intros w1 T1 A6 A7 A8. apply bind_done in A8 as (o1 & w2 & XQ & A8). inversion A8; subst o w'.
    destruct (execute_with_VC f t S IH ltac:(lia) w1 o1 w2 T1 A6 A7 XQ) as [V2 [RV2 _]]. apply mark_VC; assumption. }
  destruct (memN t (consistent w0)); destruct (get_task_output w0 t) as [o0|].
  - rewrite MC in Eq. inversion Eq; subst. exact V0.
  - destruct MC.
  - destruct MC as [[H0 J1 C1 _ _ _] [HE MC]]. rewrite deps_of_task_map in HE, MC.
    pose proof (check_deps_VC f t S IH ltac:(lia) (kidsT w0 t) [] w0 eq_refl H0 J1 C1 Q0 V0 ltac:(intros d dp []) (fun d Hd => HE _ (in_map _ _ d Hd))) as CV.
    change (map (row w0 t) (kidsT w0 t)) with (map (fun d => get_edata (gr w0) (tn t) d) (kids_of (gr w0) (tn t))) in CV.
    destruct (check_deps RC OC (mc f) _ w0) as [ok w1|k w1|]; [|rewrite MC in Eq; discriminate..].
    destruct MC as [[s1 P1] [T1 [_ MC]]]. rewrite MC in Eq. destruct CV as [_ [Q1 [V1 Vall]]].
    destruct ok; [|exact (EM w1 T1 Q1 V1 Eq)]. inversion Eq; subst o w'. apply mark_VC; [exact V1|].
    intros d dp R'. apply (Vall eq_refl d dp); [|exact R']. cbn [app]. unfold kidsT. rewrite <- (po_frame _ _ _ _ _ _ P1 t (or_introl eq_refl)).
    apply (wf_edata _ (proj1 (top_ok _ _ _ T1))). unfold row in R'. congruence.
  - destruct MC as [T0 MC]. rewrite MC in Eq. exact (EM w0 T0 Q0 V0 Eq).
Qed.

Variable always : ocid.

Lemma session_require_VC fuel w t o w' : StoreOK w -> Inv2 w -> Q gen ord w -> VC w -> (ord t < fuel)%nat ->
  session_require RC OC P always fuel w t = Done o w' ->
  VC w' /\ memN t (consistent w') = true /\ get_task_output w' t = Some o /\ cons_mono w w' /\
  (forall y, memN y (consistent w) = true -> get_task_output w' y = get_task_output w y).
Proof.
  intros H J0 Hq V Hf Eq. pose proof (session_require_spec RC OC P always fuel w t H J0) as SP. rewrite Eq in SP. destruct SP as [[s P1] [Cx Ox]].
  split; [|split; [exact Cx|split; [exact Ox|split; [apply (po_mono _ _ _ _ _ _ P1)|intros y Y; apply (post_cons_out _ _ _ _ _ _ y P1 ltac:(intros []) Y)]]]].
  destruct (session_require_run RC OC P always fuel w t H J0) as [_ [H2 [J2 [_ RR]]]]. rewrite RR in Eq. clear RR.
  pose proof (Same_top_start always w t) as Sm2. set (w2 := top_start always w t) in *.
  assert (Q2 : Q gen ord w2) by (apply Q_goc_task; apply (Q_same gen ord w); [reflexivity|exact Hq]).
  assert (V2 : VC w2).
  { intros y Y. rewrite (same_cons _ _ Sm2) in Y. apply (rows_same_rowv w w2 y Sm2 (proj2 (goc_task_row _ t y))). apply V. exact Y. }
  destruct (mc fuel w2 t) as [o4 w4|k w4|] eqn:MA; try discriminate. inversion Eq; subst o w'.
  apply (VC_same w4); [reflexivity|apply Same_struct; reflexivity|].
  exact (make_consistent_td_VC fuel w2 t [] o4 w4 H2 J2 (chain_nil w2) Logic.I Q2 V2 Hf MA).
Qed.

Fixpoint roots (ops : list sop) : list task := match ops with [] => [] | SRequire t :: tl => t :: roots tl | SBottomUp _ :: tl => roots tl end.

Theorem session_VC fuel ops : forall w, roots_below ord fuel ops -> J w -> Q gen ord w -> VC w ->
  let r := run_session RC OC P always fuel w ops in
  VC (snd r) /\ J (snd r) /\ Q gen ord (snd r) /\ cons_mono w (snd r) /\
  (forall y, memN y (consistent w) = true -> get_task_output (snd r) y = get_task_output w y) /\
  fst r = map (fun t => RDone (get_task_output (snd r) t)) (roots ops) /\
  forall t, In t (roots ops) -> memN t (consistent (snd r)) = true.
Proof.
  induction ops as [|op tl IH]; intros w RB Jw Hq V; cbn [run_session roots].
  - cbn. split; [exact V|]. split; [exact Jw|]. split; [exact Hq|]. split; [intros y Y; exact Y|]. split; [intros; reflexivity|].
    split; [reflexivity|intros t []].
  - destruct op as [t|ch]; [|destruct RB]. destruct RB as [Hf RB]. cbn [run_sop roots].
    pose proof (session_require_Q gen wck ord RC OC P sf HS HWF HWO always fuel w t (proj1 Jw) (proj2 Jw) Hq Hf) as SQ.
    pose proof (session_require_execs RC OC P always fuel w t Jw) as SE.
    destruct (session_require RC OC P always fuel w t) as [x w1|k w1|] eqn:SR; cbn [ret] in SQ; try contradiction.
    destruct SE as [J1 _].
    destruct (session_require_VC fuel w t x w1 (proj1 Jw) (proj2 Jw) Hq V Hf SR) as [V1 [C1 [O1 [M1 St1]]]].
    specialize (IH w1 RB J1 SQ V1). cbv zeta in IH.
    destruct (run_session RC OC P always fuel w1 tl) as [rs w2]. cbn [fst snd] in *.
    destruct IH as [A1 [A2 [A3 [A4 [A5 [A6 A7]]]]]].
    split; [exact A1|]. split; [exact A2|]. split; [exact A3|]. split; [intros y Y; apply A4, M1; exact Y|].
    split; [intros y Y; rewrite (A5 y (M1 y Y)); apply St1; exact Y|].
    split; [cbn [map]; rewrite (A5 t C1), O1, A6; reflexivity|]. intros t' [<-|I']; [apply A4; exact C1|apply A7; exact I'].
Qed.
End V.
