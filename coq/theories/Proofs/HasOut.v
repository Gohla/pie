(* For all programs and checkers, a recorded require dependency (edge data DRequire, i.e. not a reservation) points to a task
   that has an output or whose execution is open (HB): the required task has just returned its output when the dependency is
   recorded, the start of an execution opens the task, its end stores the output.  With no aborts (static class,
   NoAbortAll.v) no execution stays open at the end of a session, so after any history the target has an output
   (OnceAll.run_history_HBs).  HB is an instance of SInv: invariants of store and stream that say nothing of aborted builds,
   indexed by the tasks whose require is in progress, the ghost of InvE.Base (Section Pass); FullOut.FO and "the queue is
   untouched by top-down builds" (TdValid.v) are others. *)
From Coq Require Import List NArith ZArith Bool Lia.
From PieV Require Import Model.Dag Model.Build Proofs.Local2 Proofs.Local Proofs.DagLib Proofs.DagWF Proofs.StoreInv Proofs.Steps Proofs.ExecInv Proofs.Cert
  Proofs.NoBug4All Proofs.InvE Proofs.NoReentry Proofs.NoBugAll Proofs.CertAll.
Import ListNotations.
Open Scope N_scope.

Definition opn (w : world) (x : task) : Prop := In x (opens (trace w)).
Definition HB (w : world) : Prop :=
  forall x y c st, row w x (tn y) = Some (DRequire y c st) -> get_task_output w y <> None \/ opn w y.
Definition hq (w w' : world) : Prop :=
  outs w' = outs w /\ opens (trace w') = opens (trace w) /\
  forall x y c st, row w' x (tn y) = Some (DRequire y c st) -> row w x (tn y) = Some (DRequire y c st).

Lemma hq_refl w : hq w w. Proof. split; [reflexivity|split; [reflexivity|trivial]]. Qed.
Lemma hq_trans a b c : hq a b -> hq b c -> hq a c.
Proof. intros [A1 [A2 A3]] [B1 [B2 B3]]. split; [congruence|split; [congruence|intros x y k st X; apply A3, B3, X]]. Qed.
Lemma HB_hq w w' : hq w w' -> HB w -> HB w'.
Proof.
  intros [A1 [A2 A3]] H x y c st X. unfold get_task_output, opn. rewrite A1, A2. apply (H x y c st). apply A3. exact X.
Qed.
Lemma hq_same w w' : gr w' = gr w -> outs w' = outs w -> opens (trace w') = opens (trace w) -> hq w w'.
Proof. intros G O T. split; [exact O|split; [exact T|]]. intros x y c st. unfold row. rewrite G. trivial. Qed.
Lemma hq_emit w e : ev3 e = true -> hq w (emit w e).
Proof. intros H. apply hq_same; [reflexivity|reflexivity|apply opens_ev3; exact H]. Qed.
Lemma hq_geq w w' : geq w w' -> outs w' = outs w -> opens (trace w') = opens (trace w) -> hq w w'.
Proof. intros G O T. split; [exact O|split; [exact T|]]. intros x y c st. unfold row. rewrite (proj2 (G (tn x))). trivial. Qed.
Lemma hq_goc w n : hq w (goc w n).
Proof. apply hq_geq; [apply geq_goc| |]; destruct (goc_gr w n) as [g ->]; reflexivity. Qed.
Lemma hq_goc_task w t : hq w (get_or_create_task_node w t). Proof. exact (hq_goc w (tn t)). Qed.
Lemma hq_goc_res w r : hq w (get_or_create_resource_node w r). Proof. exact (hq_goc w (rn r)). Qed.
Lemma hq_add_dependency w s d dp : WF (gr w) -> (forall y c st, dp <> DRequire y c st) -> fst (add_dependency w s d dp) <> AddBug ->
  hq w (snd (add_dependency w s d dp)).
Proof.
  intros W Hd NB. pose proof (add_dependency_edata w s d dp W) as ED.
  destruct (add_dependency_gr w s d dp) as [g Eg].
  destruct (add_dependency w s d dp) as [[| |] w']; cbn [fst snd] in *; try (contradiction NB; reflexivity); subst w'; (split; [reflexivity|]; split; [reflexivity|]);
    intros x y c st X; unfold row in *; (destruct (ED (tn x) (tn y)) as [E|[_ [_ [_ E]]]]; [rewrite <- E; exact X|rewrite E in X; inversion X; exfalso; eapply Hd; eassumption]).
Qed.
Lemma hq_set_content w r v : hq w (set_content w r v). Proof. apply hq_same; destruct v; reflexivity. Qed.
Lemma hq_queue_add w t : hq w (queue_add w t). Proof. unfold queue_add. destruct (memN _ _); [apply hq_refl|apply hq_same; reflexivity]. Qed.

Lemma lstep_hq w w' : StoreOK w -> lstep w w' -> hq w w'.
Proof.
  intros H S. destruct S as [a e He|a r|a r v|a t r dp ar b _ [c [st Hdp]] _ E NB].
  - apply hq_emit. destruct e; try discriminate; reflexivity.
  - apply hq_goc_res.
  - apply hq_set_content.
  - replace b with (snd (add_dependency a (tn t) (rn r) dp)) by (rewrite E; reflexivity).
    apply hq_add_dependency; [apply H|destruct Hdp; subst dp; discriminate|rewrite E; exact NB].
Qed.
Lemma sstep_hq w w' : sstep w w' -> hq w w'.
Proof.
  intros [a e He|a e|a t|a r]; [apply hq_emit; destruct e; try discriminate; reflexivity|apply hq_same; reflexivity|apply hq_queue_add|apply hq_goc_res].
Qed.
Lemma sched_hq w w' : chain sstep w w' -> hq w w'.
Proof. apply (chain_in sstep hq hq_refl hq_trans sstep_hq). Qed.

Lemma HB_start w t : StoreOK w -> HB w -> HB (startw w t).
Proof.
  intros HS H x y c st X. destruct (reset_task_facts w t HS) as [_ _ _ _ _ _ R7 R8 R9 R10].
  unfold row in X. change (get_edata (gr (reset_task w t)) (tn x) (tn y) = Some (DRequire y c st)) in X.
  destruct (N.eq_dec x t) as [->|Hx]; [rewrite R8 in X; discriminate|].
  rewrite R7 in X by (intros E; apply tn_inj in E; contradiction).
  unfold opn. change (opens (trace (startw w t))) with (t :: opens (trace w)).
  destruct (N.eq_dec y t) as [->|Hy]; [right; left; reflexivity|].
  change (get_task_output (reset_task w t) y <> None \/ In y (t :: opens (trace w))). rewrite (R10 y Hy).
  destruct (H x y c st X) as [A|A]; [left; exact A|right; right; exact A].
Qed.
Lemma HB_end w t o c : HB w -> HB (endw w t o c).
Proof.
  intros H x y k st X. change (row w x (tn y) = Some (DRequire y k st)) in X. unfold endw.
  destruct (N.eq_dec y t) as [->|Hy].
  - left. rewrite output_set_eq. discriminate.
  - rewrite output_set_other by exact Hy. change (get_task_output w y <> None \/ In y (removeN t (opens (trace w)))).
    destruct (H x y k st X) as [A|A]; [left; exact A|right; apply In_removeN_other'; assumption].
Qed.

Definition okH {A} (m : outcome A) : Prop := match m with Done _ w' => HB w' | _ => True end.
Definition hqO {A} (w : world) (m : outcome A) : Prop := match m with Done _ w' => hq w w' | _ => True end.
Lemma rw_hq {X} RC (o : rwop X) w : L w -> hqO w (run_rw RC o w).
Proof. intros HL. pose proof (rw_rel RC hq o w hq_refl hq_trans lstep_hq HL) as Y. destruct (run_rw RC o w); [exact Y|exact Logic.I|exact Logic.I]. Qed.

(* S lists the tasks whose require is in progress: their nodes may exist before they have an output (FullOut.v); HB ignores it *)
Definition okSI {A} (I : list task -> world -> Prop) (S : list task) (m : outcome A) : Prop := match m with Done _ w' => I S w' | _ => True end.
Record SInv (I : list task -> world -> Prop) : Prop := mkSInv {
  si_lstep : forall S w w', StoreOK w -> lstep w w' -> I S w -> I S w';
  si_same : forall S w w', gr w' = gr w -> outs w' = outs w -> opens (trace w') = opens (trace w) -> queue w' = queue w -> I S w -> I S w';
  si_goc_task : forall S w t, In t S -> I S w -> I S (get_or_create_task_node w t);
  si_reserve : forall S w s d, WF (gr w) -> fst (add_dependency w s d DReserved) = AddOk -> I S w -> I S (snd (add_dependency w s d DReserved));
  (* S grows when a require of t begins and shrinks when the sub-build of t has returned t's output (InvE.b_push, b_pop) *)
  si_weaken : forall S t w, I S w -> I (t :: S) w;
  si_drop : forall S t w, get_task_output w t <> None -> I (t :: S) w -> I S w;
  si_start : forall S w t, StoreOK w -> I S w -> I S (startw w t);
  si_end : forall S w t o c, I S w -> I S (endw w t o c);
  si_update : forall S w s t c st, get_task_output w t <> None -> I S w -> I S (set_gr w (insert_edata (gr w) s (tn t) (DRequire t c st)))
}.

Record SInvBU (I : list task -> world -> Prop) : Prop := mkSInvBU {
  si_sstep : forall S w w', sstep w w' -> I S w -> I S w';
  si_queue : forall S w q, I S w -> I S (set_queue w q)
}.

Section Pass.
Variable RC : rcid -> rchecker.
Variable OC : ocid -> ochecker.
Variable P : task -> prog.
Variable I : list task -> world -> Prop.
Hypothesis HI : SInv I.
Notation okSI := (okSI I).

Definition SIMC (mc : world -> task -> outcome Z) : Prop := forall S w t, StoreOK w -> I S w -> okSI S (mc w t).

(* InvE.Base at the ghost S, pushed by a require; the store invariant is carried beside I, and every abort is excused (any),
   since I says nothing of the world an abort leaves *)
Definition IG (S : list task) (w : world) : Prop := StoreOK w /\ I S w.
Definition any (k : akind) : Prop := True.
Notation okIG := (okG (list task) IG any (fun _ => True)).
Definition SIREQ : (world -> task -> ocid -> outcome Z) -> Prop := REQ (list task) IG any (fun _ => True).
Lemma okIG_SI {A} S (m : outcome A) : okIG S m -> okSI S m.
Proof. destruct m; cbn; [intros H; apply H|trivial|trivial]. Qed.
Lemma IG_same S w w' : gr w' = gr w -> outs w' = outs w -> opens (trace w') = opens (trace w) -> queue w' = queue w -> IG S w -> IG S w'.
Proof. intros G O T Q [H1 H2]. split; [unfold StoreOK; rewrite G; exact H1|apply (si_same I HI S w); assumption]. Qed.

Theorem sinv_base : Base RC (list task) (fun S t => t :: S) (fun S _ => S) IG (fun S w _ => IG S w) any (fun _ => True).
Proof.
  pose proof (StoreOK_preserved RC) as SP. constructor.
  - trivial.
  - intros S t w [H1 H2]. split; [exact H1|apply (si_weaken I HI); exact H2].
  - intros S t w Ho [H1 H2]. split; [exact H1|apply (si_drop I HI S t); assumption].
  - intros S. apply (steps_rw RC _ IG any (fun _ => True) S); [trivial| |left; exact Logic.I].
    intros w w' [H1 H2] X. split; [exact (lstep_ok w w' H1 X)|exact (si_lstep I HI S w w' H1 X H2)].
  - intros S w t [H1 H2]. pose proof (pr_reserve _ _ SP w t H1) as R1. unfold reserve_require_dependency in *. destruct (cur w) as [s|]; [|split; assumption].
    pose proof (si_reserve I HI S w (tn s) (tn t) (proj1 H1)) as R2.
    destruct (add_dependency w (tn s) (tn t) DReserved) as [[| |] w3]; cbn in *; [split; [exact R1|exact (R2 eq_refl H2)]|left; exact Logic.I..].
  - intros S w t c st Ho [H1 H2]. pose proof (pr_update _ _ SP w t c st H1) as U1. unfold update_require_dependency in *. destruct (cur w) as [s|]; [|split; assumption].
    destruct (get_edata (gr w) (tn s) (tn t)); cbn in *; [split; [exact U1|apply (si_update I HI); assumption]|left; exact Logic.I].
  - intros S w t [H1 H2]. split; [apply goc_task_ok; exact H1|apply (si_goc_task I HI); [left; reflexivity|exact H2]].
  - intros S w t. apply IG_same; reflexivity.
  - intros S w s e Hb. apply IG_same; [reflexivity|reflexivity|apply opens_ev3, calm_nonexec, (brackets_calm s e Hb)|reflexivity].
  - intros S w s e _ He. apply IG_same; [reflexivity|reflexivity|apply opens_ev3; exact (calm_nonexec e He)|reflexivity].
  - intros S w t [H1 H2]. split; [apply (pr_exec_start _ _ SP); exact H1|apply (si_start I HI); assumption].
  - intros S w t o c [H1 H2]. split; [exact H1|apply (si_end I HI); exact H2].
Qed.
Theorem sinv_base_td : BaseTd (list task) (fun S _ => S) IG (fun S w _ => IG S w).
Proof.
  constructor.
  - intros S w d c st _. apply IG_same; reflexivity.
  - intros S w r c st x _ _ H. apply (IG_same S w); [destruct x; reflexivity..|exact H].
  - intros S w t H _. exact H.
Qed.

Theorem make_consistent_td_I fuel : SIMC (make_consistent_td RC OC P fuel).
Proof.
  intros S w t H1 Hw. eapply holds_mono; [| |intros; exact Logic.I].
  - exact (make_consistent_td_g RC OC P _ _ _ _ _ _ _ sinv_base sinv_base_td fuel S w t (conj H1 (si_weaken I HI S t w Hw))).
  - intros o w' E X. apply (si_drop I HI S t); [rewrite (holds_done (td_out RC OC P fuel w t) E); discriminate|apply X].
Qed.
Lemma require_td_I fuel : SIREQ (require_with OC (make_consistent_td RC OC P fuel)).
Proof. exact (require_with_g RC OC _ _ _ _ _ _ _ sinv_base _ (make_consistent_td_g RC OC P _ _ _ _ _ _ _ sinv_base sinv_base_td fuel) (td_out RC OC P fuel)). Qed.
Lemma execute_with_I req S w t : SIREQ req -> IG S w -> okIG S (execute_with RC OC P req w t).
Proof. exact (execute_with_g RC OC P _ _ _ _ _ _ _ sinv_base req S w t). Qed.

Hypothesis HIb : SInvBU I.

Theorem sinv_base_bu : BaseBu (list task) (fun S _ => S) IG (fun S w _ => IG S w).
Proof.
  assert (SS : forall S w w', sstep w w' -> IG S w -> IG S w').
  { intros S w w' X [H1 H2]. split; [apply (sstep_L w w' H1 X)|apply (si_sstep I HIb S w w' X H2)]. }
  constructor.
  - intros S w r. apply (SS S w), ss_goc.
  - intros S w t c st x _ H. eapply SS; [apply ss_add|]. eapply SS; [apply ss_emit; reflexivity|].
    apply (SS S w _ (ss_emit w (ECheckReadResEnd t c st x) eq_refl)) in H. destruct x; [exact H..|eapply SS; [apply ss_err|exact H]].
  - intros S w t c st H. eapply SS; [apply ss_add|]. eapply SS; [apply ss_emit; reflexivity|]. eapply SS; [apply ss_emit; reflexivity|exact H].
  - intros S w t [H1 H2] _. split; [exact H1|apply (si_queue I HIb); exact H2].
  - intros S w t H _ _. exact H.
Qed.

Definition SIBU (fuel : nat) : Prop :=
  (forall S w t, StoreOK w -> I S w -> okSI S (bu_execute_and_schedule RC OC P fuel w t)) /\
  (forall S w t, StoreOK w -> I S w -> okSI S (bu_make_consistent RC OC P fuel w t)) /\
  (forall S w t, StoreOK w -> I S w -> okSI S (bu_require_scheduled_now RC OC P fuel w t)).
Theorem bottom_up_I fuel : SIBU fuel.
Proof.
  destruct (bottom_up_g RC OC P _ _ _ _ _ _ _ sinv_base sinv_base_bu fuel) as [A [B C]].
  split; [|split]; intros S w t H1 Hw; apply okIG_SI; [apply A|apply B|apply C]; exact (conj H1 Hw).
Qed.
Lemma require_bu_I fuel : SIREQ (require_bu_with OC (bu_make_consistent RC OC P fuel)).
Proof.
  apply (require_bu_with_g RC OC _ _ _ _ _ _ _ sinv_base); [|exact (proj1 (proj2 (bu_out RC OC P fuel)))].
  intros g w0 t0. apply (bottom_up_g RC OC P _ _ _ _ _ _ _ sinv_base sinv_base_bu fuel).
Qed.
Theorem execute_scheduled_I fuel : forall S w, StoreOK w -> I S w -> okSI S (execute_scheduled RC OC P fuel w).
Proof. intros S w H1 Hw. exact (okIG_SI S _ (execute_scheduled_g RC OC P _ _ _ _ _ _ _ sinv_base sinv_base_bu fuel S w (conj H1 Hw))). Qed.

Variable always : ocid.

Lemma session_require_I fuel S w t : StoreOK w -> I S w -> okSI S (session_require RC OC P always fuel w t).
Proof.
  intros H1 Hw. apply okIG_SI, (session_require_g RC OC P _ _ _ _ _ _ _ sinv_base sinv_base_td); [|exact (conj H1 Hw)].
  intros w0. apply IG_same; reflexivity.
Qed.
Lemma session_bottom_up_I fuel S w ch : StoreOK w -> I S w -> okSI S (session_bottom_up RC OC P fuel w ch).
Proof.
  intros H1 Hw. apply okIG_SI, (session_bottom_up_g RC OC P _ _ _ _ _ _ _ sinv_base sinv_base_bu); [intros w0; apply IG_same; reflexivity|].
  split; [exact H1|apply (si_queue I HIb); exact Hw].
Qed.
End Pass.

Lemma HB_sinv : SInv (fun _ => HB).
Proof.
  constructor; cbn beta.
  - intros _ w w' HS S. apply HB_hq, lstep_hq; assumption.
  - intros _ w w' G O T _. apply HB_hq, hq_same; assumption.
  - intros S w t _. apply HB_hq, hq_goc_task.
  - intros _ w s d W E. apply HB_hq, hq_add_dependency; [exact W|intros; discriminate|rewrite E; discriminate].
  - intros _ t w X. exact X.
  - intros _ t w _ X. exact X.
  - intros _. apply HB_start.
  - intros _. apply HB_end.
  - intros _ w s t c st Ho Hw x y k st' X. unfold row in X. cbn [gr set_gr] in X. rewrite get_edata_insert in X.
    change (get_task_output w y <> None \/ opn w y).
    destruct (pair_eqb (s, tn t) (tn x, tn y)) eqn:Z; [|apply (Hw x y k st'); exact X].
    apply pair_eqb_eq in Z. inversion Z as [[Z1 Z2]]. apply tn_inj in Z2. subst y. left. exact Ho.
Qed.

Lemma HB_sinvBU : SInvBU (fun _ => HB).
Proof. split; [intros _ w w' S; apply HB_hq, sstep_hq; exact S|intros _ w q; apply HB_hq, hq_same; reflexivity]. Qed.

Section HO.
Variable RC : rcid -> rchecker.
Variable OC : ocid -> ochecker.
Variable P : task -> prog.

Definition HREQ : (world -> task -> ocid -> outcome Z) -> Prop := SIREQ (fun _ => HB).
Definition HMC (mc : world -> task -> outcome Z) : Prop := forall w t, StoreOK w -> HB w -> okH (mc w t).

Lemma require_H req w t c : HREQ req -> StoreOK w -> HB w -> okH (req w t c).
Proof. intros HH H1 H2. exact (okIG_SI (fun _ => HB) [] _ (HH [] w t c (conj H1 H2))). Qed.
Lemma exec_prog_H req : HREQ req -> forall p w, StoreOK w -> HB w -> okH (exec_prog RC OC req p w).
Proof. intros HH p w H1 H2. exact (okIG_SI (fun _ => HB) [] _ (exec_prog_g RC OC _ _ _ _ _ _ _ (sinv_base RC _ HB_sinv) req HH [] p w (conj H1 H2))). Qed.
Lemma execute_with_H req w t : HREQ req -> StoreOK w -> HB w -> okH (execute_with RC OC P req w t).
Proof. intros HH H1 H2. exact (okIG_SI (fun _ => HB) [] _ (execute_with_I RC OC P _ HB_sinv req [] w t HH (conj H1 H2))). Qed.
Theorem make_consistent_td_H fuel : HMC (make_consistent_td RC OC P fuel).
Proof. exact (make_consistent_td_I RC OC P _ HB_sinv fuel []). Qed.
Lemma require_td_H fuel : HREQ (require_with OC (make_consistent_td RC OC P fuel)).
Proof. exact (require_td_I RC OC P _ HB_sinv fuel). Qed.

Definition HBU (fuel : nat) : Prop :=
  (forall w t, StoreOK w -> HB w -> okH (bu_execute_and_schedule RC OC P fuel w t)) /\
  HMC (bu_make_consistent RC OC P fuel) /\
  (forall w t, StoreOK w -> HB w -> okH (bu_require_scheduled_now RC OC P fuel w t)).
Theorem bottom_up_H fuel : HBU fuel.
Proof. destruct (bottom_up_I RC OC P _ HB_sinv HB_sinvBU fuel) as [A [B C]]. split; [apply (A [])|split; [exact (B [])|apply (C [])]]. Qed.

Lemma require_bu_H fuel : HREQ (require_bu_with OC (bu_make_consistent RC OC P fuel)).
Proof. exact (require_bu_I RC OC P _ HB_sinv HB_sinvBU fuel). Qed.
Theorem execute_scheduled_H fuel : forall w, StoreOK w -> HB w -> okH (execute_scheduled RC OC P fuel w).
Proof. exact (execute_scheduled_I RC OC P _ HB_sinv HB_sinvBU fuel []). Qed.

Variable always : ocid.
Lemma session_require_H fuel w t : StoreOK w -> HB w -> okH (session_require RC OC P always fuel w t).
Proof. exact (session_require_I RC OC P _ HB_sinv always fuel [] w t). Qed.
Lemma session_bottom_up_H fuel w ch : StoreOK w -> HB w -> okH (session_bottom_up RC OC P fuel w ch).
Proof. exact (session_bottom_up_I RC OC P _ HB_sinv HB_sinvBU fuel [] w ch). Qed.
End HO.
