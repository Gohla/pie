(* C08 (exact record) as an invariant of all top-down runs, and the certificate used by C01: for every task that has an output,
   the dependency list held by the store is exactly the sequence of requires, reads and writes of one complete run of its
   program (same targets, same order, same checkers, each with a stamp of the value that run observed) ending in that output
   -- nothing left over from earlier executions.  Class: task programs that touch each target at most once per execution (NR);
   resource stampers total and independent of the checker environment (HS).  Two dependencies on one target with different
   checkers: recorded finding O7. *)
From Coq Require Import List ZArith.
From PieV Require Import Model.Dag Model.Build Proofs.DagLib Proofs.DagWF Proofs.DagAddEdge  Proofs.StoreInv
  Proofs.Effects Proofs.Local Proofs.Steps Proofs.ExecInv Proofs.ExecSession.
Import ListNotations.
Open Scope N_scope.

(* [seen]: the targets touched so far, in order *)
Inductive NR : list node -> prog -> Prop :=
| NR_ret seen o : NR seen (Ret o)
| NR_panic seen : NR seen Panic
| NR_req seen x c k : ~ In (tn x) seen -> (forall v, NR (seen ++ [tn x]) (k v)) -> NR seen (Req x c k)
| NR_read seen r c k : ~ In (rn r) seen -> (forall v, NR (seen ++ [rn r]) (k v)) -> NR seen (Read r c k)
| NR_write seen r c v k : ~ In (rn r) seen -> (forall x, NR (seen ++ [rn r]) (k x)) -> NR seen (Write r c v k)
| NR_wto seen r c v k : ~ In (rn r) seen -> (forall x, NR (seen ++ [rn r]) (k x)) -> NR seen (WrittenTo r c v k).

Section C.
Variable RC : rcid -> rchecker.
Variable OC : ocid -> ochecker.
Variable P : task -> prog.
Variable sf : rcid -> res -> content -> Z.
Hypothesis HS : forall c env r v, rc_stamp (RC c) env r v = inl (sf c r v).
Hypothesis HNR : forall t, NR [] (P t).

(* a complete run of program p that had recorded targets [acc] before, ends with output o and recorded targets kf;
   D = the final dependency data of the task *)
Inductive Rep (D : node -> option dep) : prog -> list node -> Z -> list node -> Prop :=
| Rep_ret o acc : Rep D (Ret o) acc o acc
| Rep_req x c k ox acc o kf :
    D (tn x) = Some (DRequire x c (oc_stamp (OC c) ox)) -> Rep D (k (oc_view (OC c) ox)) (acc ++ [tn x]) o kf ->
    Rep D (Req x c k) acc o kf
| Rep_read r c k v acc o kf :
    D (rn r) = Some (DRead r c (sf c r v)) -> Rep D (k (inl (rc_view (RC c) v))) (acc ++ [rn r]) o kf ->
    Rep D (Read r c k) acc o kf
| Rep_write r c v k acc o kf :
    D (rn r) = Some (DWrite r c (sf c r v)) -> Rep D (k (inl tt)) (acc ++ [rn r]) o kf ->
    Rep D (Write r c v k) acc o kf
| Rep_wto r c v k acc o kf :
    D (rn r) = Some (DWrite r c (sf c r v)) -> Rep D (k (inl tt)) (acc ++ [rn r]) o kf ->
    Rep D (WrittenTo r c v k) acc o kf.

Definition row (w : world) (t : task) (d : node) : option dep := get_edata (gr w) (tn t) d.
Definition kidsT (w : world) (t : task) : list node := kids_of (gr w) (tn t).
Definition Cert (w : world) (t : task) (o : Z) : Prop := Rep (row w t) (P t) [] o (kidsT w t).
Definition K (w : world) : Prop := forall t o, get_task_output w t = Some o -> Cert w t o.

Lemma Rep_ext D D' p acc o kf : (forall d, D' d = D d) -> Rep D p acc o kf -> Rep D' p acc o kf.
Proof.
  intros E R. induction R.
  - constructor.
  - eapply Rep_req; [rewrite E; eassumption|assumption].
  - eapply Rep_read; [rewrite E; eassumption|assumption].
  - eapply Rep_write; [rewrite E; eassumption|assumption].
  - eapply Rep_wto; [rewrite E; eassumption|assumption].
Qed.

Lemma K_frame w w' :
  (forall t, get_task_output w' t <> None ->
     get_task_output w' t = get_task_output w t /\ kidsT w' t = kidsT w t /\ forall d, row w' t d = row w t d) ->
  K w -> K w'.
Proof.
  intros F Kw t o Ho. destruct (F t ltac:(congruence)) as [A [B C]]. rewrite A in Ho. specialize (Kw t o Ho).
  unfold Cert in *. rewrite B. eapply Rep_ext; [|exact Kw]. exact C.
Qed.

Definition RowStep (t : task) (w w' : world) (d : node) (dp : dep) : Prop :=
  kidsT w' t = kidsT w t ++ [d] /\ row w' t d = Some dp /\ forall d', d' <> d -> row w' t d' = row w t d'.

Lemma add_dep_new w s d dp w' : WF (gr w) -> ~ In d (kids_of (gr w) s) -> add_dependency w s d dp = (AddOk, w') ->
  kids_of (gr w') s = kids_of (gr w) s ++ [d] /\ get_edata (gr w') s d = Some dp /\
  (forall v, v <> d -> get_edata (gr w') s v = get_edata (gr w) s v).
Proof.
  intros W Hn E. pose proof (add_dependency_view w s d dp W) as V. rewrite E in V.
  destruct V as [[_ X]|[_ [_ [_ [VK VE]]]]]; [destruct (Hn (X eq_refl))|]. split; [rewrite VK, N.eqb_refl; reflexivity|]. split.
  - rewrite VE. rewrite (proj2 (pair_eqb_eq _ _) eq_refl). reflexivity.
  - intros v Hv. rewrite VE. destruct (pair_eqb (s, d) (s, v)) eqn:Z; [|reflexivity]. apply pair_eqb_eq in Z. inversion Z. congruence.
Qed.

Lemma res_no_kids w r : StoreOK w -> kids_of (gr w) (rn r) = [].
Proof.
  intros [W [T _]]. destruct (kids_of (gr w) (rn r)) as [|v tl] eqn:E; [reflexivity|]. exfalso.
  assert (X : get_edata (gr w) (rn r) v <> None) by (apply (wf_edata _ W); rewrite E; left; reflexivity).
  destruct (get_edata (gr w) (rn r) v) as [dp|] eqn:Y; [|contradiction]. destruct (T _ _ _ Y) as [Z _]. rewrite rn_odd in Z. discriminate.
Qed.

Lemma add_dep_res_no_cycle w t r dp w' : StoreOK w -> add_dependency w (tn t) (rn r) dp = (AddCycle, w') -> False.
Proof.
  intros H. unfold add_dependency.
  destruct (live (gr w) (tn t)) eqn:Lt; [destruct (live (gr w) (rn r)) eqn:Lr|].
  - pose proof (add_edge_cycle_iff (gr w) (tn t) (rn r) dp (proj1 H) Lt Lr) as I.
    destruct (add_edge (gr w) (tn t) (rn r) dp) as [[b|[|]|] g'] eqn:AE; cbn [fst] in *; intros X; inversion X.
    destruct (proj1 I eq_refl) as [E|Pth]; [exact (tn_rn _ _ E)|].
    inversion Pth; subst; rewrite (res_no_kids w r H) in *; contradiction.
  - unfold add_edge. rewrite Lt, Lr. cbn. intros X; inversion X.
  - unfold add_edge. rewrite Lt. cbn. intros X; inversion X.
Qed.

Lemma goc_row w n t : kidsT (goc w n) t = kidsT w t /\ forall d, row (goc w n) t d = row w t d.
Proof. destruct (goc_spec w n) as [g [-> [K [E _]]]]. split; [apply K|intros d; apply E]. Qed.
Lemma goc_res_row w r t : kidsT (get_or_create_resource_node w r) t = kidsT w t /\
  forall d, row (get_or_create_resource_node w r) t d = row w t d.
Proof. exact (goc_row w (rn r) t). Qed.
Lemma goc_task_row w x t : kidsT (get_or_create_task_node w x) t = kidsT w t /\
  forall d, row (get_or_create_task_node w x) t d = row w t d.
Proof. exact (goc_row w (tn x) t). Qed.

Lemma record_row t w w2 w3 r dp ar w' : StoreOK w2 -> gr w3 = gr w2 -> kidsT w2 t = kidsT w t -> (forall d, row w2 t d = row w t d) ->
  ~ In (rn r) (kidsT w t) -> add_dependency w3 (tn t) (rn r) dp = (ar, w') -> ar <> AddBug -> RowStep t w w' (rn r) dp.
Proof.
  intros H2 G K2 R2 Hn AD NB. assert (H3 : StoreOK w3) by (unfold StoreOK; rewrite G; exact H2).
  destruct ar; [|exfalso; exact (add_dep_res_no_cycle w3 t r dp w' H3 AD)|contradiction].
  assert (Hn3 : ~ In (rn r) (kids_of (gr w3) (tn t))) by (rewrite G; unfold kidsT in *; rewrite K2; exact Hn).
  destruct (add_dep_new w3 _ _ _ _ (proj1 H3) Hn3 AD) as [A [B C]].
  unfold RowStep, kidsT, row in *. rewrite G in *. split; [rewrite A; f_equal; exact K2|]. split; [exact B|].
  intros d' Hd. rewrite C by exact Hd. apply R2.
Qed.

(* read, write and written_to as one: what the operation answers, what the resource holds afterwards and what is recorded,
   when the resource holds v before *)
Definition rw_ans {X} (o : rwop X) (v : content) : X :=
  match o in rwop X return X with ORead r c => inl (rc_view (RC c) v) | OWrite _ _ _ | OWrittenTo _ _ _ => inl tt end.
Definition rw_val {X} (o : rwop X) (v : content) : content :=
  match o with ORead _ _ => v | OWrite _ _ v' | OWrittenTo _ _ v' => v' end.
Definition rw_rec {X} (o : rwop X) (v : content) : dep :=
  match o with ORead r c => DRead r c (sf c r v) | OWrite r c v' | OWrittenTo r c v' => DWrite r c (sf c r v') end.

(* their course for an executing task, where the stamp is a function of the content (HS, in Steps.rw_form): in rw_at the
   operation is validated; if nothing blocks it, the dependency is added in rw_mid (write has stored its value, the end event
   carries the stamp of what the resource holds now) and the task gets its answer *)
Definition rw_mid {X} (o : rwop X) (w : world) : world :=
  match o with
  | ORead r c => emit (rw_at o w) (EReadEnd r c (sf c r (get_content w r)))
  | OWrite r c v => emit (set_content (rw_at o w) r v) (EWriteEnd r c (sf c r v))
  | OWrittenTo r c v => emit (rw_at o w) (EWriteEnd r c (sf c r v))
  end.
Lemma run_rw_eq {X} (o : rwop X) w t : cur w = Some t ->
  run_rw RC o w =
    match rw_blocked o (rw_at o w) t with
    | Some k => Abort k (rw_at o w)
    | None =>
      match add_dependency (rw_mid o w) (tn t) (rn (rw_res o)) (rw_rec o (get_content w (rw_res o))) with
      | (AddBug, w4) => Abort (ABug 4) w4
      | (_, w4) => Done (rw_ans o (get_content w (rw_res o))) w4
      end
    end.
Proof.
  intros Hc. rewrite run_rw_form. unfold rw_form. cbv zeta. rewrite cur_rw_before, Hc. destruct (rw_blocked o (rw_at o w) t); [reflexivity|]. rewrite HS.
  destruct o as [r c|r c v|r c v]; cbn [rw_after rw_end rw_dp rw_stamped rw_ok rw_checker rw_res rw_mid rw_rec rw_ans];
    [reflexivity|rewrite get_content_set_content; reflexivity|].
  replace (get_content (rw_at (OWrittenTo r c v) w) r) with v; [reflexivity|].
  unfold rw_at, get_content, get_or_create_resource_node. cbn [rw_before rw_start rw_res]. destruct (live _ _); symmetry; apply (get_content_set_content w r v).
Qed.
Lemma rw_at_gr {X} (o : rwop X) w : gr (rw_at o w) = gr (get_or_create_resource_node w (rw_res o)).
Proof. destruct o as [r c|r c v|r c v]; unfold rw_at; cbn [rw_before rw_start rw_res]; unfold get_or_create_resource_node; [|destruct v..]; cbn [gr emit set_content set_rstate]; destruct (live _ _); reflexivity. Qed.
Lemma rw_mid_gr {X} (o : rwop X) w : gr (rw_mid o w) = gr (rw_at o w).
Proof. destruct o as [r c|r c v|r c v]; [reflexivity|destruct v; reflexivity|reflexivity]. Qed.

Lemma run_rw_row {X} (o : rwop X) w t x w' : StoreOK w -> cur w = Some t -> ~ In (rn (rw_res o)) (kidsT w t) ->
  run_rw RC o w = Done x w' ->
  x = rw_ans o (get_content w (rw_res o)) /\ RowStep t w w' (rn (rw_res o)) (rw_rec o (get_content w (rw_res o))).
Proof.
  intros H Hc Hn. rewrite (run_rw_eq o w t Hc). destruct (rw_blocked o (rw_at o w) t); [discriminate|].
  destruct (goc_res_row w (rw_res o) t) as [K2 R2]. unfold kidsT, row in K2, R2. rewrite <- (rw_at_gr o w) in K2, R2.
  assert (H2 : StoreOK (rw_at o w)) by (unfold StoreOK; rewrite rw_at_gr; apply goc_res_ok; exact H).
  pose proof (fun ar w4 => record_row t w (rw_at o w) (rw_mid o w) (rw_res o) (rw_rec o (get_content w (rw_res o))) ar w4 H2 (rw_mid_gr o w) K2 R2 Hn) as RS.
  destruct (add_dependency _ _ _ _) as [[| |] w4]; intros E; inversion E; subst;
    (split; [reflexivity|apply (RS _ _ eq_refl); discriminate]).
Qed.
Lemma Rep_rw {X} (o : rwop X) D k v acc out kf :
  D (rn (rw_res o)) = Some (rw_rec o v) -> Rep D (k (rw_ans o v)) (acc ++ [rn (rw_res o)]) out kf -> Rep D (rw_prog o k) acc out kf.
Proof. destruct o; [apply Rep_read|apply Rep_write|apply Rep_wto]. Qed.
Lemma Rep_rw_ind D (Q : prog -> list node -> Z -> list node -> Prop) :
  (forall o acc, Q (Ret o) acc o acc) ->
  (forall x c k ox acc o kf, D (tn x) = Some (DRequire x c (oc_stamp (OC c) ox)) -> Rep D (k (oc_view (OC c) ox)) (acc ++ [tn x]) o kf ->
     Q (k (oc_view (OC c) ox)) (acc ++ [tn x]) o kf -> Q (Req x c k) acc o kf) ->
  (forall X (op : rwop X) k v acc o kf, D (rn (rw_res op)) = Some (rw_rec op v) -> Rep D (k (rw_ans op v)) (acc ++ [rn (rw_res op)]) o kf ->
     Q (k (rw_ans op v)) (acc ++ [rn (rw_res op)]) o kf -> Q (rw_prog op k) acc o kf) ->
  forall p acc o kf, Rep D p acc o kf -> Q p acc o kf.
Proof.
  intros H1 H2 H3 p acc o kf R.
  induction R as [o acc|x c k ox acc o kf HD R IHR|r c k v acc o kf HD R IHR|r c v k acc o kf HD R IHR|r c v k acc o kf HD R IHR].
  - apply H1.
  - eapply H2; eassumption.
  - apply (H3 _ (ORead r c) k v); assumption.
  - apply (H3 _ (OWrite r c v) k v); assumption.
  - apply (H3 _ (OWrittenTo r c v) k v); assumption.
Qed.
Lemma NR_req_inv seen x c k : NR seen (Req x c k) -> ~ In (tn x) seen /\ forall v, NR (seen ++ [tn x]) (k v).
Proof. intros H. inversion H; subst. split; assumption. Qed.
Lemma NR_rw {X} seen (o : rwop X) k : NR seen (rw_prog o k) -> ~ In (rn (rw_res o)) seen /\ forall x, NR (seen ++ [rn (rw_res o)]) (k x).
Proof. destruct o; intros H; inversion_clear H; split; assumption. Qed.

Record Pre (t : task) (S : list task) (w : world) : Prop := mkPre {
  pre_ok : StoreOK w; pre_inv : Inv2 w; pre_chain : Chain w (t :: S); pre_cur : cur w = Some t;
  pre_out : get_task_output w t = None; pre_nores : NoResAt w t
}.
Lemma pre_step {A} t S w (a : A) w1 : Pre t S w ->
  okP S [t] [] w (Done a w1) (fun _ w' => cur w' = Some t /\ NoResAt w' t) -> Pre t S w1.
Proof.
  intros [H J0 C Hc Ho Hn] [[seg P1] [Hc1 Hn1]]. constructor.
  - apply (po_ok _ _ _ _ _ _ P1). - apply (po_inv _ _ _ _ _ _ P1 J0). - eapply chain_post; eassumption. - exact Hc1.
  - rewrite (po_oframe _ _ _ _ _ _ P1) by (right; left; reflexivity). exact Ho. - exact Hn1.
Qed.

Lemma req_pre t S req w x c : REQspec t S req -> Pre t S w ->
  okP S [t] [] w (req w x c) (fun _ w' => cur w' = Some t /\ NoResAt w' t).
Proof. intros HR PR. exact (HR w x c (pre_ok _ _ _ PR) (pre_inv _ _ _ PR) (pre_chain _ _ _ PR) (pre_cur _ _ _ PR) (pre_out _ _ _ PR) (pre_nores _ _ _ PR)). Qed.
Lemma rw_pre {A} t S w (m : outcome A) : Pre t S w -> rw_chain w m ->
  leafO t w m /\ okP S [t] [] w m (fun _ w' => cur w' = Some t /\ NoResAt w' t).
Proof.
  intros PR C. split; [apply (rw_chain_leaf t w m (pre_ok _ _ _ PR) (pre_cur _ _ _ PR) C)|].
  exact (rw_chain_okP S t w m (pre_ok _ _ _ PR) (chain_head_notin _ _ _ (pre_chain _ _ _ PR)) (pre_cur _ _ _ PR) (pre_out _ _ _ PR) (pre_nores _ _ _ PR) C).
Qed.
Lemma rw_pre_done {A} t S w (x : A) w1 : Pre t S w -> rw_chain w (Done x w1) -> Leaf t w w1 /\ Pre t S w1.
Proof. intros PR C. destruct (rw_pre t S w _ PR C) as [LF SP]. split; [exact LF|exact (pre_step t S w x w1 PR SP)]. Qed.

Lemma exec_start_pre t S w : Top t S w ->
  let w2 := startw w t in
  Pre t S w2 /\ memN t (consistent w2) = false /\ kidsT w2 t = [] /\ rstate w2 = rstate w /\ consistent w2 = consistent w.
Proof.
  intros T w2. destruct (exec_start_facts w t S T) as [H2 [J2 [C2 [N2 K2]]]].
  split; [constructor; [exact H2|exact J2|exact C2|reflexivity|exact (rt_out w t (reset_task_facts w t (top_ok _ _ _ T)))|exact N2]|].
  split; [exact (top_nc _ _ _ T)|]. split; [exact K2|split; reflexivity].
Qed.

Definition outK {A} (m : outcome A) : Prop :=
  match m with Done _ w' => K w' | Abort k w' => k = ABug 4 \/ K w' | OutOfFuel => True end.

Lemma K_same w w' : gr w' = gr w -> outs w' = outs w -> K w -> K w'.
Proof.
  intros G O. apply K_frame. intros t _. unfold get_task_output, kidsT, row. rewrite G, O. repeat split.
Qed.
Lemma leaf_K t w w' : Leaf t w w' -> get_task_output w t = None -> K w -> K w'.
Proof.
  intros L Ho. apply K_frame. intros x Hx. rewrite (leaf_out t w w' x L) in *.
  assert (Hne : tn x <> tn t) by (intros E; apply tn_inj in E; subst; contradiction).
  split; [reflexivity|]. split; [apply (lf_grows _ _ _ L); exact Hne|intros d; apply (lf_eother _ _ _ L); exact Hne].
Qed.

Lemma leafO_K {A} t w (m : outcome A) : leafO t w m -> get_task_output w t = None -> K w -> outK m.
Proof.
  intros LF Ho Kw. destruct m as [x w1|k w1|]; cbn in *; [apply (leaf_K t w w1 LF Ho Kw)| |exact Logic.I].
  destruct LF as [->|[_ LF]]; [left; reflexivity|right; apply (leaf_K t w w1 LF Ho Kw)].
Qed.

(* what the induction carries: make_task_consistent below a stack keeps K; so does a require of the executing task t; and a
   returning require of a new target x adds exactly the entry for x, with the stamp of the output it returned, to the list of t *)
Definition KMC (mc : world -> task -> outcome Z) : Prop :=
  forall w t S, StoreOK w -> Inv2 w -> Chain w S -> entry_ok w S t -> K w -> outK (mc w t).
Definition KREQ (t : task) (S : list task) (req : world -> task -> ocid -> outcome Z) : Prop :=
  forall w x c, Pre t S w -> K w -> outK (req w x c).
Definition ROWREQ (t : task) (S : list task) (req : world -> task -> ocid -> outcome Z) : Prop :=
  forall w x c o w', Pre t S w -> ~ In (tn x) (kidsT w t) -> req w x c = Done o w' ->
    RowStep t w w' (tn x) (DRequire x c (oc_stamp (OC c) o)).

Lemma require_prefix t S w x c : Pre t S w ->
  let w2 := at_require w x c in
  Leaf t w w2 /\ cur w2 = Some t /\
  match add_dependency w2 (tn t) (tn x) DReserved with
  | (AddOk, w3) => Leaf t w w3 /\ edge w3 t x /\ Chain w3 (t :: S) /\ Inv2 w3 /\ get_task_output w3 t = None /\ cur w3 = Some t
  | (AddCycle, w3) => Leaf t w w3
  | (AddBug, _) => True
  end.
Proof. intros [H J0 C Hc Ho _]. exact (reserve_course t S w x c H J0 C Hc Ho). Qed.

Lemma require_with_run mc t S w x c : MCspec mc -> Pre t S w ->
  let w2 := at_require w x c in
  match add_dependency w2 (tn t) (tn x) DReserved with
  | (AddOk, w3) =>
      Leaf t w w3 /\ edge w3 t x /\ Chain w3 (t :: S) /\ Inv2 w3 /\ get_task_output w3 t = None /\ cur w3 = Some t /\
      match mc w3 x with
      | Done o w4 =>
          let w5 := emit w4 (ERequireEnd x c (oc_stamp (OC c) o) o) in
          (exists seg, Post (t :: S) [] [] w3 w4 seg) /\ cur w4 = Some t /\
          require_with OC mc w x c = Done o (set_gr w5 (insert_edata (gr w5) (tn t) (tn x) (DRequire x c (oc_stamp (OC c) o))))
      | Abort k w4 => require_with OC mc w x c = Abort k w4
      | OutOfFuel => require_with OC mc w x c = OutOfFuel
      end
  | (AddCycle, w3) => Leaf t w w3 /\ require_with OC mc w x c = Abort ACycle w3
  | (AddBug, w3) => require_with OC mc w x c = Abort (ABug 4) w3
  end.
Proof. intros HM [H J0 C Hc Ho _]. exact (require_course OC mc t S w x c HM H J0 C Hc Ho). Qed.

Lemma require_with_K mc t S : MCspec mc -> KMC mc -> KREQ t S (require_with OC mc).
Proof.
  intros HM HK w x c PR Kw. pose proof (require_with_run mc t S w x c HM PR) as RR. cbv zeta in RR.
  destruct (add_dependency _ (tn t) (tn x) DReserved) as [[| |] w3];
    [|destruct RR as [L3 ->]; right; apply (leaf_K t w w3 L3 (pre_out _ _ _ PR) Kw)|rewrite RR; left; reflexivity].
  destruct RR as [L3 [E3 [C3 [J3 [Ho3 [Hc3 RM]]]]]].
  pose proof (HK w3 x (t :: S) (lf_ok _ _ _ L3) J3 C3 E3 (leaf_K t w w3 L3 (pre_out _ _ _ PR) Kw)) as MK.
  destruct (mc w3 x) as [o w4|k w4|]; [|rewrite RM; exact MK|rewrite RM; exact Logic.I].
  destruct RM as [[s4 P4] [Hc4 ->]]. cbn [outK] in *.
  (* only the data of the edge from t changes, and t has no output *)
  apply (K_frame w4); [|exact MK]. intros y Hy.
  assert (Hne : y <> t).
  { intros ->. apply Hy. change (get_task_output w4 t = None). rewrite (po_oframe _ _ _ _ _ _ P4) by (left; left; reflexivity). exact Ho3. }
  split; [reflexivity|]. split; [reflexivity|]. intros d. unfold row. cbn [gr set_gr emit]. rewrite get_edata_insert.
  destruct (pair_eqb (tn t, tn x) (tn y, d)) eqn:Z; [|reflexivity]. apply pair_eqb_eq in Z. inversion Z as [[Z1 Z2]]. apply tn_inj in Z1. congruence.
Qed.

Lemma reserve_row t w x c w3 : StoreOK w -> ~ In (tn x) (kidsT w t) ->
  add_dependency (at_require w x c) (tn t) (tn x) DReserved = (AddOk, w3) ->
  RowStep t w w3 (tn x) DReserved.
Proof.
  intros H Hnew AD. destruct (goc_task_row (emit w (ERequireStart x c)) x t) as [K2 R2]. fold (at_require w x c) in K2, R2.
  set (w2 := at_require w x c) in *.
  assert (Hn2 : ~ In (tn x) (kids_of (gr w2) (tn t))) by (unfold kidsT in *; rewrite K2; exact Hnew).
  destruct (add_dep_new w2 (tn t) (tn x) DReserved w3 (proj1 (goc_task_ok (emit w (ERequireStart x c)) x H)) Hn2 AD) as [A3 [B3 D3]].
  unfold RowStep, kidsT, row. split; [rewrite A3; f_equal; exact K2|]. split; [exact B3|]. intros d' Hd. rewrite D3 by exact Hd. apply R2.
Qed.

Lemma require_with_row mc t S : MCspec mc -> ROWREQ t S (require_with OC mc).
Proof.
  intros HM w x c o w' PR Hnew Eq. pose proof (require_with_run mc t S w x c HM PR) as RR. cbv zeta in RR.
  pose proof (reserve_row t w x c) as RS.
  destruct (add_dependency _ (tn t) (tn x) DReserved) as [[| |] w3];
    [|destruct RR as [_ RR]; rewrite RR in Eq; discriminate|rewrite RR in Eq; discriminate].
  destruct RR as [L3 [E3 [C3 [J3 [Ho3 [Hc3 RM]]]]]]. destruct (RS w3 (pre_ok _ _ _ PR) Hnew eq_refl) as [A3 [_ B3]].
  destruct (mc w3 x) as [o4 w4|k w4|]; [|rewrite RM in Eq; discriminate|rewrite RM in Eq; discriminate].
  destruct RM as [[s4 P4] [Hc4 RM]]. rewrite RM in Eq. inversion Eq. subst o w'. clear Eq.
  assert (K4 : kidsT w4 t = kidsT w3 t) by (apply (po_frame _ _ _ _ _ _ P4); left; reflexivity).
  assert (E4 : forall d, row w4 t d = row w3 t d) by (intros d; apply (po_eframe _ _ _ _ _ _ P4); left; reflexivity).
  unfold RowStep. split; [|split].
  - change (kidsT w4 t = kidsT w t ++ [tn x]). rewrite K4. exact A3.
  - unfold row. cbn [gr set_gr emit]. rewrite get_edata_insert. rewrite (proj2 (pair_eqb_eq _ _) eq_refl). reflexivity.
  - intros d' Hd. unfold row at 1. cbn [gr set_gr emit]. rewrite get_edata_insert.
    destruct (pair_eqb (tn t, tn x) (tn t, d')) eqn:Z; [apply pair_eqb_eq in Z; inversion Z; congruence|].
    change (row w4 t d' = row w t d'). rewrite E4. apply B3. exact Hd.
Qed.

(* the run of a program from w: the certificate K survives, and the dependencies added to those of t replay the program *)
Definition Full (t : task) (p : prog) (w : world) (m : outcome Z) : Prop :=
  match m with
  | Done o w' => K w' /\ Rep (row w' t) p (kidsT w t) o (kidsT w' t) /\ (forall d, In d (kidsT w t) -> row w' t d = row w t d)
  | Abort k w' => k = ABug 4 \/ K w'
  | OutOfFuel => True
  end.

Lemma full_seq {A} t S req w (m : outcome A) (kk : A -> prog) p d :
  Pre t S w -> ~ In d (kidsT w t) ->
  okP S [t] [] w m (fun _ w' => cur w' = Some t /\ NoResAt w' t) -> outK m ->
  (forall a w1, m = Done a w1 -> exists dp, RowStep t w w1 d dp /\
     forall D o acc kf, D d = Some dp -> Rep D (kk a) (acc ++ [d]) o kf -> Rep D p acc o kf) ->
  (forall a w1, Pre t S w1 -> K w1 -> kidsT w1 t = kidsT w t ++ [d] -> Full t (kk a) w1 (exec_prog RC OC req (kk a) w1)) ->
  Full t p w (bind m (fun a w' => exec_prog RC OC req (kk a) w')).
Proof.
  intros PR Hd SP KQ RQ IH. destruct m as [a w1|k1 w1|]; cbn [bind outK Full] in *; [|exact KQ|exact Logic.I].
  destruct (RQ a w1 eq_refl) as [dp [[E [B C]] Rp]].
  specialize (IH a w1 (pre_step t S w a w1 PR SP) KQ E).
  destruct (exec_prog RC OC req (kk a) w1) as [o w'|k2 w'|]; cbn [Full] in *; [|exact IH|exact Logic.I].
  destruct IH as [K' [R' St']]. rewrite E in R', St'. split; [exact K'|]. split.
  - eapply Rp; [|exact R']. rewrite St' by (apply in_or_app; right; left; reflexivity). exact B.
  - intros d0 Hd0. rewrite St' by (apply in_or_app; left; exact Hd0). apply C. intros ->. contradiction.
Qed.

Lemma exec_prog_full t S req : REQspec t S req -> KREQ t S req -> ROWREQ t S req ->
  forall p w, Pre t S w -> K w -> NR (kidsT w t) p -> Full t p w (exec_prog RC OC req p w).
Proof.
  intros HR HK HRow. induction p as [o| |x c k IH|X o k IH] using prog_rw_ind; intros w PR Kw HN.
  - split; [exact Kw|]. split; [constructor|reflexivity].
  - right. exact Kw.
  - destruct (NR_req_inv _ x c k HN) as [Hx Hk].
    apply (full_seq t S req w (req w x c) (fun o => k (oc_view (OC c) o)) _ (tn x) PR Hx); [exact (req_pre t S req w x c HR PR)|exact (HK w x c PR Kw)| |].
    + intros o w1 Eq. eexists. split; [apply (HRow w x c o w1 PR Hx Eq)|]. intros D o' acc kf HD R. eapply Rep_req; eassumption.
    + intros o w1 PR1 K1 E. apply IH; [exact PR1|exact K1|rewrite E; apply Hk].
  - destruct (NR_rw _ o k HN) as [Hx Hk]. destruct (rw_pre t S w _ PR (run_rw_chain RC o w)) as [LF SP]. rewrite exec_prog_rw.
    apply (full_seq t S req w (run_rw RC o w) k _ (rn (rw_res o)) PR Hx SP (leafO_K t w _ LF (pre_out _ _ _ PR) Kw)).
    + intros xv w1 Eq. destruct (run_rw_row o w t xv w1 (pre_ok _ _ _ PR) (pre_cur _ _ _ PR) Hx Eq) as [-> RS].
      eexists. split; [exact RS|]. intros D o' acc kf HD R. eapply Rep_rw; eassumption.
    + intros xv w1 PR1 K1 E. apply IH; [exact PR1|exact K1|rewrite E; apply Hk].
Qed.

Lemma exec_start_K w t : StoreOK w -> K w -> K (startw w t).
Proof.
  intros H Kw. destruct (reset_task_facts w t H) as [_ K1 _ _ _ _ E1 _ O0 O1].
  apply (K_frame w); [|exact Kw]. intros y Hy. change (get_task_output (reset_task w t) y <> None) in Hy.
  assert (Hne : y <> t) by (intros ->; contradiction).
  split; [apply O1; exact Hne|]. unfold kidsT, row. change (gr (startw w t)) with (gr (reset_task w t)).
  split; [apply K1|intros d; apply E1]; intros E; apply tn_inj in E; contradiction.
Qed.

Lemma execute_with_K t S req : REQspec t S req -> KREQ t S req -> ROWREQ t S req ->
  forall w, Top t S w -> K w -> outK (execute_with RC OC P req w t).
Proof.
  intros HR HK HRow w T Kw. rewrite execute_with_eq.
  destruct (exec_start_pre t S w T) as [PR2 [_ [KT2 _]]]. pose proof (exec_start_K w t (top_ok _ _ _ T) Kw) as K2.
  set (w2 := startw w t) in *.
  pose proof (exec_prog_full t S req HR HK HRow (P t) w2 PR2 K2) as B. rewrite KT2 in B.
  eapply holds_bind; [exact (B (HNR t))|]. intros o w3 _ [K3 [R3 _]].
  intros y oy Hy. unfold endw in Hy. rewrite output_set in Hy. destruct (N.eqb_spec y t) as [->|Hne]; [|apply (K3 y oy Hy)].
  inversion Hy; subst oy. rewrite KT2 in R3. exact R3.
Qed.

Lemma K_still w w' : K w -> Still w w' -> K w'.
Proof.
  intros Kw [Qk [Qe [Qo _]]]. apply (K_frame w); [|exact Kw]. intros t _. unfold get_task_output, kidsT, row. rewrite Qo.
  split; [reflexivity|split; [apply Qk|intros d; apply Qe]].
Qed.
Lemma K_goc_task w t : K w -> K (get_or_create_task_node w t).
Proof. intros Kw. apply (K_still w); [exact Kw|apply still_goc_task]. Qed.

(* K as a pass over the top-down interpreter (ExecSession.TdPass): an invariant, also of the store an abort leaves *)
Lemma K_laws : Laws K (fun _ _ w' => K w') True (fun _ _ => True).
Proof. constructor; auto. intros _ w w'. apply K_still. Qed.

Lemma KMC_X f mc : TdMC K (fun _ _ w' => K w') (fun k w' => k = ABug 4 \/ K w') True (fun _ _ => True) f mc <-> KMC mc.
Proof. split; [intros HX w t S H J0 C E Kw; exact (HX w t S H J0 C E Kw Logic.I)|intros HK w t S H J0 C E Kw _; exact (HK w t S H J0 C E Kw)]. Qed.

Lemma execute_K f t S w : KMC (make_consistent_td RC OC P f) -> Top t S w -> K w ->
  outK (execute_with RC OC P (require_with OC (make_consistent_td RC OC P f)) w t).
Proof.
  intros HK. pose proof (make_consistent_td_spec RC OC P f) as HM.
  apply execute_with_K; [apply (require_with_spec OC); exact HM|apply require_with_K; assumption|apply require_with_row; exact HM].
Qed.

Lemma check_deps_K mc t S : MCspec mc -> KMC mc ->
  forall ds w, StoreOK w -> Inv2 w -> Chain w (t :: S) -> (forall d, In d ds -> dep_ok w t d) -> K w ->
  outK (check_deps RC OC mc ds w).
Proof. intros HM HK. apply (check_deps_X RC OC _ _ _ _ _ K_laws 0 mc t S HM (proj2 (KMC_X 0 mc) HK) Logic.I). Qed.

Theorem make_consistent_td_K fuel : KMC (make_consistent_td RC OC P fuel).
Proof.
  apply (KMC_X fuel), (make_consistent_td_X RC OC P _ _ _ _ _ K_laws).
  intros f t S w HX T Kw _. exact (execute_K f t S w (proj1 (KMC_X f _) HX) T Kw).
Qed.

Variable always : ocid.

Lemma K_init : K init_world. Proof. intros t o X. discriminate. Qed.

Lemma session_require_K fuel w t : StoreOK w -> Inv2 w -> K w -> outK (session_require RC OC P always fuel w t).
Proof.
  intros H J0 Kw. apply (session_require_X RC OC P _ _ _ _ _ K_laws); [|exact H|exact J0|exact Kw|exact Logic.I].
  intros f t' S w' HX T Kw' _. exact (execute_K f t' S w' (proj1 (KMC_X f _) HX) T Kw').
Qed.

End C.
