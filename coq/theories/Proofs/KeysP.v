(* C15: the store maps keys to nodes as an injective function of (concrete type, value), whatever the hashes do. *)
From Coq Require Import List NArith Bool.
From PieV Require Import Model.Keys.
Import ListNotations.
Open Scope N_scope.

Lemma eq_any_spec a b : eq_any a b = true <-> a = b.
Proof.
  unfold eq_any. destruct a, b; cbn. rewrite andb_true_iff, !N.eqb_eq.
  split; [intros [A B]; subst; reflexivity|intros H; inversion H; split; reflexivity].
Qed.
Lemma eq_any_refl a : eq_any a a = true. Proof. apply eq_any_spec. reflexivity. Qed.

Lemma bucket_set_same m h b : bucket (set_bucket m h b) h = b.
Proof.
  induction m as [|[h' b'] tl IH]; cbn; [rewrite N.eqb_refl; reflexivity|].
  destruct (N.eqb h' h) eqn:E; cbn; [rewrite N.eqb_refl; reflexivity|]. rewrite E. exact IH.
Qed.
Lemma bucket_set_other m h h' b : h <> h' -> bucket (set_bucket m h b) h' = bucket m h'.
Proof.
  intros Hne. induction m as [|[h0 b0] tl IH]; cbn.
  - destruct (N.eqb h h') eqn:E; [apply N.eqb_eq in E; congruence|reflexivity].
  - destruct (N.eqb h0 h) eqn:E; cbn.
    + apply N.eqb_eq in E. subst h0. destruct (N.eqb h h') eqn:E2; [apply N.eqb_eq in E2; congruence|reflexivity].
    + destruct (N.eqb h0 h'); [reflexivity|exact IH].
Qed.

Lemma find_app_none {A} (f : A -> bool) l1 l2 : find f l1 = None -> find f (l1 ++ l2) = find f l2.
Proof. induction l1 as [|a tl IH]; cbn; [reflexivity|]. destruct (f a); [discriminate|exact IH]. Qed.
Lemma find_app_some {A} (f : A -> bool) l1 l2 x : find f l1 = Some x -> find f (l1 ++ l2) = Some x.
Proof. induction l1 as [|a tl IH]; cbn; [discriminate|]. destruct (f a); [tauto|exact IH]. Qed.

(* k' may have the same hash as k (same value, different type) *)
Lemma klookup_insert m k n k' :
  klookup m k = None ->
  klookup (kinsert m k n) k' = if eq_any k k' then Some n else klookup m k'.
Proof.
  intros Hnone. unfold klookup, kinsert in *.
  destruct (N.eq_dec (hash_obj k) (hash_obj k')) as [Hh|Hh].
  - rewrite <- Hh. rewrite bucket_set_same.
    destruct (find (fun p => eq_any (fst p) k') (bucket m (hash_obj k))) as [p|] eqn:Ef.
    + rewrite (find_app_some _ _ _ _ Ef).
      destruct (eq_any k k') eqn:Ek; [|reflexivity].
      apply eq_any_spec in Ek. subst k'. rewrite Ef in Hnone. discriminate.
    + rewrite find_app_none by exact Ef. cbn.
      destruct (eq_any k k'); reflexivity.
  - rewrite bucket_set_other by exact Hh.
    destruct (eq_any k k') eqn:Ek; [|reflexivity].
    apply eq_any_spec in Ek. subst k'. congruence.
Qed.

Definition KInv (s : kmap * N) : Prop :=
  (forall k n, klookup (fst s) k = Some n -> n < snd s) /\
  (forall k k' n, klookup (fst s) k = Some n -> klookup (fst s) k' = Some n -> k = k').

Lemma KInv_init : KInv ([], 0).
Proof. split; intros; cbn in *; discriminate. Qed.

Lemma get_or_create_spec s k : KInv s ->
  let '(n, s') := get_or_create s k in
  KInv s' /\ klookup (fst s') k = Some n /\ snd s <= snd s' /\
  (forall k' n', klookup (fst s) k' = Some n' -> klookup (fst s') k' = Some n') /\
  (klookup (fst s) k = None -> n = snd s).
Proof.
  intros [Hlt Hinj]. unfold get_or_create. destruct (klookup (fst s) k) as [n|] eqn:E.
  - split; [split; assumption|]. split; [exact E|]. split; [apply N.le_refl|]. split; [intros k' n' H; exact H|discriminate].
  - unfold KInv. cbn [fst snd]. split; [split|split; [|split; [|split]]].
    + intros k' n' H. rewrite klookup_insert in H by exact E. rewrite N.add_1_r. apply N.lt_succ_r.
      destruct (eq_any k k'); [inversion H; apply N.le_refl|]. apply N.lt_le_incl. exact (Hlt _ _ H).
    + intros k1 k2 n' H1 H2. rewrite klookup_insert in H1, H2 by exact E.
      destruct (eq_any k k1) eqn:E1; destruct (eq_any k k2) eqn:E2.
      * apply eq_any_spec in E1, E2. congruence.
      * inversion H1; subst. destruct (N.lt_irrefl _ (Hlt _ _ H2)).
      * inversion H2; subst. destruct (N.lt_irrefl _ (Hlt _ _ H1)).
      * exact (Hinj _ _ _ H1 H2).
    + rewrite klookup_insert by exact E. rewrite eq_any_refl. reflexivity.
    + apply N.le_add_r.
    + intros k' n' H. rewrite klookup_insert by exact E.
      destruct (eq_any k k') eqn:Ek; [|exact H]. apply eq_any_spec in Ek. subst. congruence.
    + reflexivity.
Qed.

Fixpoint store_after (s : kmap * N) (ks : list key) : kmap * N :=
  match ks with [] => s | k :: tl => store_after (snd (get_or_create s k)) tl end.

Lemma assign_recorded ks : forall s, KInv s ->
  KInv (store_after s ks) /\
  (forall k n, klookup (fst s) k = Some n -> klookup (fst (store_after s ks)) k = Some n) /\
  (forall i k n, nth_error ks i = Some k -> nth_error (assign_from s ks) i = Some n ->
                 klookup (fst (store_after s ks)) k = Some n).
Proof.
  induction ks as [|k0 tl IH]; intros s HI.
  - split; [exact HI|]. split; [intros k n H; exact H|]. intros [|i]; discriminate.
  - cbn [assign_from store_after]. pose proof (get_or_create_spec s k0 HI) as Hs.
    destruct (get_or_create s k0) as [n0 s']. destruct Hs as [HI' [Hk0 [_ [Hmono _]]]].
    destruct (IH s' HI') as [HE [Hkeep Hrec]]. split; [exact HE|]. split.
    + intros k n H. apply Hkeep. apply Hmono. exact H.
    + intros [|i] k n Hk Hn.
      * inversion Hk; inversion Hn; subst. apply Hkeep. exact Hk0.
      * exact (Hrec i k n Hk Hn).
Qed.

Theorem assign_same_iff ks : forall s, KInv s -> forall i j ki kj ni nj,
  nth_error ks i = Some ki -> nth_error ks j = Some kj ->
  nth_error (assign_from s ks) i = Some ni -> nth_error (assign_from s ks) j = Some nj ->
  (ni = nj <-> ki = kj).
Proof.
  intros s HI i j ki kj ni nj Hi Hj Hni Hnj. destruct (assign_recorded ks s HI) as [[_ Hinj] [_ Hrec]].
  pose proof (Hrec i ki ni Hi Hni) as Li. pose proof (Hrec j kj nj Hj Hnj) as Lj. split.
  - intros <-. exact (Hinj _ _ _ Li Lj).
  - intros <-. congruence.
Qed.
