(* C04, at most once, for sessions that mix the two kinds of build: a session of top-down requires followed by a bottom-up build
   -- static class, reflexive checkers, after ANY history -- executes no task twice IN THE WHOLE SESSION (so in particular the
   bottom-up build executes no task twice, and none that a require of the session already executed).
   The top-down part leaves a consistent set that is closed under dependencies and whose recorded dependencies are all
   accepted by their checkers (Valid.v: VC); the initial scheduling of the bottom-up build queues only tasks with a rejected
   resource dependency, hence none of them: the invariant Om of OnceAll.v holds when the build starts. *)
From Coq Require Import List NArith ZArith Bool Lia.
From PieV Require Import Model.Build Proofs.Steps Proofs.StoreInv
  Proofs.ExecInv Proofs.ExecSession Proofs.Cert Proofs.Stable Proofs.NoAbort
  Proofs.CertAll
  Proofs.Sim Proofs.Valid Proofs.OnceAll.
Import ListNotations.
Open Scope N_scope.

Section MO.
Variable gen : res -> option task.
Variable wck : rcid -> Prop.
Variable ord : task -> nat.
Variable RC : rcid -> rchecker.
Variable OC : ocid -> ochecker.
Variable P : task -> prog.
Variable sf : rcid -> res -> content -> Z.
Variable always : ocid.
Hypothesis HS : forall c env r v, rc_stamp (RC c) env r v = inl (sf c r v).
Hypothesis HWF : forall t, WFP gen wck t [] (P t).
Hypothesis HWO : forall t, WFO ord t (P t).
Hypothesis HRefl : forall c env r v, rc_check (RC c) env r v (sf c r v) = Consistent.
Hypothesis HReflO : forall c o, oc_check (OC c) o (oc_stamp (OC c) o) = true.

Lemma reach_closed v c x : StoreOK v -> VC RC OC v -> isC v c -> RT v c x -> isC v x.
Proof.
  intros HS0 HV. apply (RT_closed v (isC v) HS0). intros a y Ca E.
  destruct (task_edge v a y HS0 E) as [Ed|[c' [st Ed]]]; [destruct (HV a Ca _ _ Ed)|exact (proj1 (HV a Ca _ _ Ed))].
Qed.

Theorem requires_then_bottom_up_at_most_once fuel h tdops ch : roots_below ord fuel tdops ->
  let w := new_session (snd (run_history RC OC P always fuel init_world h)) in
  let v := snd (run_session RC OC P always fuel w tdops) in
  match session_bottom_up RC OC P fuel v ch with
  | Done _ w' => NoDup (execs (trace w'))
  | Abort _ _ => False
  | OutOfFuel => True
  end.
Proof.
  intros RB w v. pose proof (history_SB gen wck ord RC OC P sf HS HWF HWO always fuel h) as SBw. fold w in SBw.
  pose proof (run_session_SB gen wck ord RC OC P sf HS HWF HWO always fuel tdops w SBw) as SBv. fold v in SBv.
  destruct SBw as [[VSw [Kw Qw]] Hhw]. pose proof SBv as [[VSv [Kv Qv]] Hv].
  assert (Jw : ExecSession.J w) by (split; [apply VSw|split; [apply VSw|intros t X; discriminate]]).
  destruct (session_returns gen wck ord RC OC P sf HS HWF HWO always fuel tdops w RB Jw Qw) as [DA _].
  assert (V0 : VC RC OC w) by (intros x Xx; discriminate).
  destruct (session_VC gen wck ord RC OC P sf HS HWF HWO HRefl HReflO always fuel tdops w RB Jw Qw V0) as [VCv [Jv _]]. fold v in VCv, Jv.
  destruct (session_post RC OC P always fuel tdops w (roots_td ord fuel tdops RB) Jw DA) as [seg PS]. fold v in PS.
  assert (Tv : trace v = rev seg) by (rewrite (po_seg _ _ _ _ _ _ PS); cbn [new_session trace]; apply app_nil_r).
  pose proof (session_bottom_up_X gen wck ord RC OC P sf HS HWF HWO _ (carried_True gen ord RC OC P sf) fuel v ch (fun _ => False) SBv) as Y. cbv zeta in Y.
  destruct (bottom_up_start gen ord RC OC P sf v ch VSv Kv Qv Hv) as [L0 [_ [LV _]]]. destruct VSv as [[Hw Hc] HV].
  set (wf := fold_left (schedule_tasks_affected_by RC) ch (set_queue v [])) in *. set (w2 := emit (set_cur wf None) EBuildStart) in *.
  assert (O2 : Om gen w2).
  { apply (start_Om gen _ _ LV); [apply Hw|]. intros c x Hcc R Ix. change (In x (queue wf)) in Ix.
    apply (initial_queue RC (set_queue v []) ch x (proj1 L0)) in Ix. destruct Ix as [[]|[r [_ [c0 [st [R0 Bd]]]]]].
    assert (GQ : geq (set_queue v []) w2) by (eapply geq_trans; [apply sched_geq, chain_fold; intros; apply schedule_tasks_affected_by_chain|apply geq_same; reflexivity]).
    pose proof (reach_closed v c x (proj1 L0) VCv Hcc (geq_RT (set_queue v []) w2 c x GQ R)) as Cx.
    destruct R0 as [R0|[_ R0]]; exact (Bd (VCv x Cx _ _ R0)). }
  assert (T2 : TT None w2).
  { apply (lv_TT None _ _ LV). unfold TT, isC. cbn [set_queue trace consistent]. rewrite Tv, execs_rev. split; [apply NoDup_rev; apply (po_nodup _ _ _ _ _ _ PS)|].
    intros x X. apply in_rev in X. destruct (po_cons _ _ _ _ _ _ PS x X) as [Y0|[]]. left. exact Y0. }
  eapply holds_mono; [exact (Y O2 T2 (fun _ Ft => match Ft with end) Logic.I)| |intros k w' _ []].
  intros u w' _ [w3 [-> [_ [_ [T3 _]]]]]. exact (proj1 T3).
Qed.
End MO.
