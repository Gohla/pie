(* C11, iteration order: after ANY operation sequence the adjacency lists are the edge log in order of first insertion
   (since the last removal of that edge), carrying the data given at that insertion. *)
From Coq Require Import List NArith Bool.
From PieV Require Import Model.Dag Proofs.DagLib Proofs.DagWF Proofs.DagAddEdge Proofs.DagRun.
Import ListNotations.
Open Scope N_scope.

Section Log.
Context {ED : Type}.
Implicit Types g : dag ED.
Definition entry := ((node * node) * ED)%type.
Definition esrc (t : entry) : node := fst (fst t).
Definition edst (t : entry) : node := snd (fst t).

(* the specification: an insertion-ordered log of the edges that were accepted and not removed since.  It asks the model's own
   add_edge and remove_edge whether an edge was accepted or present; that is not circular, since those answers are characterised
   independently by add_edge_cycle_iff, add_edge_view and remove_edge_view. *)
Definition log_step g (log : list entry) (o : gop ED) : list entry :=
  match o with
  | GAddNode => log
  | GAddEdge s d e => match fst (add_edge g s d e) with AOk true => log ++ [((s, d), e)] | _ => log end
  | GRemoveEdge s d => match fst (remove_edge g s d) with Some _ => filter (fun t => negb (pair_eqb (fst t) (s, d))) log | None => log end
  | GRemoveOut s => if live g s then filter (fun t => negb (N.eqb (esrc t) s)) log else log
  | GRemoveNode n => if live g n then filter (fun t => negb (N.eqb (esrc t) n) && negb (N.eqb (edst t) n)) log else log
  end.
Fixpoint run_log g (log : list entry) (ops : list (gop ED)) : list entry :=
  match ops with [] => log | o :: tl => run_log (gstep g o) (log_step g log o) tl end.

Definition lkids (log : list entry) (u : node) : list node := map edst (filter (fun t => N.eqb (esrc t) u) log).
Definition lpars (log : list entry) (v : node) : list node := map esrc (filter (fun t => N.eqb (edst t) v) log).
Definition ldata (log : list entry) (u v : node) : option ED :=
  match find (fun t => pair_eqb (fst t) (u, v)) log with Some t => Some (snd t) | None => None end.

Definition LogInv g (log : list entry) : Prop :=
  (forall u, kids_of g u = lkids log u) /\ (forall v, pars_of g v = lpars log v) /\ (forall u v, get_edata g u v = ldata log u v).

Lemma lkids_app l1 l2 u : lkids (l1 ++ l2) u = lkids l1 u ++ lkids l2 u.
Proof. unfold lkids. rewrite filter_app, map_app. reflexivity. Qed.
Lemma lpars_app l1 l2 v : lpars (l1 ++ l2) v = lpars l1 v ++ lpars l2 v.
Proof. unfold lpars. rewrite filter_app, map_app. reflexivity. Qed.
Lemma ldata_app l1 l2 u v : ldata (l1 ++ l2) u v = match ldata l1 u v with Some e => Some e | None => ldata l2 u v end.
Proof.
  unfold ldata. induction l1 as [|t tl IH]; cbn; [reflexivity|]. destruct (pair_eqb (fst t) (u, v)); [reflexivity|exact IH].
Qed.

Lemma lsel_filter (sel prj : entry -> node) (p : entry -> bool) log k (q : node -> bool) :
  (forall t, sel t = k -> p t = q (prj t)) ->
  map prj (filter (fun t => N.eqb (sel t) k) (filter p log)) = filter q (map prj (filter (fun t => N.eqb (sel t) k) log)).
Proof.
  intros H. induction log as [|t tl IH]; cbn; [reflexivity|].
  destruct (N.eqb_spec (sel t) k) as [E|Ne].
  - destruct (p t) eqn:Pt; cbn.
    + rewrite E, N.eqb_refl. cbn. rewrite <- (H t E), Pt. f_equal. exact IH.
    + rewrite <- (H t E), Pt. exact IH.
  - destruct (p t); cbn; [destruct (N.eqb_spec (sel t) k); [congruence|]|]; exact IH.
Qed.
Lemma ldata_filter (p : entry -> bool) log u v :
  ldata (filter p log) u v = match find (fun t => pair_eqb (fst t) (u, v) && p t) log with Some t => Some (snd t) | None => None end.
Proof.
  unfold ldata. induction log as [|t tl IH]; cbn; [reflexivity|].
  destruct (p t) eqn:Pt; cbn.
  - destruct (pair_eqb (fst t) (u, v)); cbn; [reflexivity|exact IH].
  - rewrite andb_false_r. exact IH.
Qed.
Lemma find_ext {A} (f h : A -> bool) l : (forall x, In x l -> f x = h x) -> find f l = find h l.
Proof. induction l as [|x tl IH]; intros H; cbn; [reflexivity|]. rewrite (H x (or_introl eq_refl)). destruct (h x); [reflexivity|]. apply IH. intros y Y. apply H. right. exact Y. Qed.

Lemma find_false_none {A} (l : list A) : find (fun _ => false) l = None.
Proof. induction l; cbn; [reflexivity|assumption]. Qed.

Lemma LogInv_filter g g' log (keep : node -> node -> bool) :
  LogInv g log -> removes g g' keep -> LogInv g' (filter (fun t => keep (esrc t) (edst t)) log).
Proof.
  intros [IK [IP ID]] [VK [VP VE]]. split; [|split].
  - intros u. rewrite VK, IK. symmetry. apply lsel_filter. intros t E. rewrite E. reflexivity.
  - intros v. rewrite VP, IP. symmetry. apply lsel_filter. intros t E. rewrite E. reflexivity.
  - intros u v. rewrite VE, ID, ldata_filter. unfold ldata.
    assert (X : forall t, pair_eqb (fst t) (u, v) = true -> keep (esrc t) (edst t) = keep u v).
    { intros t T. apply pair_eqb_eq in T. unfold esrc, edst. rewrite T. reflexivity. }
    destruct (keep u v).
    + rewrite (find_ext (fun t => pair_eqb (fst t) (u, v) && keep (esrc t) (edst t)) (fun t => pair_eqb (fst t) (u, v))); [reflexivity|].
      intros t _. destruct (pair_eqb (fst t) (u, v)) eqn:T; [rewrite (X t T)|]; reflexivity.
    + rewrite (find_ext (fun t => pair_eqb (fst t) (u, v) && keep (esrc t) (edst t)) (fun _ => false)); [rewrite find_false_none; reflexivity|].
      intros t _. destruct (pair_eqb (fst t) (u, v)) eqn:T; [rewrite (X t T)|]; reflexivity.
Qed.

Lemma step_log g log (o : gop ED) : WF g -> LogInv g log -> LogInv (gstep g o) (log_step g log o).
Proof.
  intros W I. destruct o as [|n|s d e|s d|s]; cbn [gstep log_step].
  - destruct I as [IK [IP ID]]. split; [|split].
    + intros u. rewrite <- IK. apply kids_of_add_node.
    + intros v. rewrite <- IP. apply pars_of_add_node.
    + intros u v. rewrite <- ID. reflexivity.
  - destruct (live g n) eqn:Ln.
    2:{ rewrite (remove_node_dead g n Ln). exact I. }
    exact (LogInv_filter g _ log _ I (remove_node_removes g n W Ln)).
  - pose proof (add_edge_view g s d e W) as V.
    destruct (fst (add_edge g s d e)) as [[|]|err|] eqn:R.
    + destruct V as [Hnk [_ [VK [VP VE]]]]. destruct I as [IK [IP ID]]. split; [|split].
      * intros u. rewrite VK, lkids_app. destruct (N.eqb_spec u s) as [->|Hus].
        -- rewrite IK. unfold lkids at 2. cbn. unfold esrc. cbn. rewrite N.eqb_refl. reflexivity.
        -- rewrite IK. unfold lkids at 2. cbn. unfold esrc. cbn. destruct (N.eqb_spec s u); [congruence|]. cbn. rewrite app_nil_r. reflexivity.
      * intros v. rewrite VP, lpars_app. destruct (N.eqb_spec v d) as [->|Hvd].
        -- rewrite IP. unfold lpars at 2. cbn. unfold edst. cbn. rewrite N.eqb_refl. reflexivity.
        -- rewrite IP. unfold lpars at 2. cbn. unfold edst. cbn. destruct (N.eqb_spec d v); [congruence|]. cbn. rewrite app_nil_r. reflexivity.
      * intros u v. rewrite VE, ldata_app, ID. unfold ldata at 3. cbn.
        destruct (pair_eqb (s, d) (u, v)) eqn:X; [|destruct (ldata log u v); reflexivity].
        apply pair_eqb_eq in X. inversion X; subst.
        rewrite <- ID, (wf_no_edata g u v W Hnk). reflexivity.
    + destruct V as [-> _]. exact I.
    + rewrite V. exact I.
    + destruct V.
  - pose proof (remove_edge_view g s d W) as V. pose proof (remove_edge_removes g s d W) as R. cbn zeta in V.
    destruct (fst (remove_edge g s d)) as [e0|]; [|destruct V as [-> _]; exact I].
    exact (LogInv_filter g _ log _ I (R ltac:(discriminate))).
  - destruct (live g s) eqn:Ls; [|rewrite remove_outgoing_snd, Ls; exact I].
    exact (LogInv_filter g _ log _ I (remove_outgoing_removes g s W)).
Qed.

Theorem run_log_inv (ops : list (gop ED)) : forall g log,
  WF g -> Fresh g -> LogInv g log -> LogInv (fold_left gstep ops g) (run_log g log ops).
Proof.
  induction ops as [|o tl IH]; intros g log W F L; cbn [fold_left run_log]; [exact L|].
  destruct (step_WF g o W F) as [W' F']. apply IH; try assumption. apply step_log; assumption.
Qed.

Theorem grun_first_insertion_order (ops : list (gop ED)) :
  let g := grun ops in let log := run_log empty [] ops in
  (forall u, kids_of g u = lkids log u) /\ (forall v, pars_of g v = lpars log v) /\ (forall u v, get_edata g u v = ldata log u v).
Proof.
  cbn zeta. unfold grun. apply run_log_inv; [apply WF_empty|intros n []|].
  split; [|split]; reflexivity.
Qed.

End Log.
