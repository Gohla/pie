(* C19 for EVERY history: no build ever ends with an internal error ("BUG: ..." panics of the implementation: consistency check
   of a reserved dependency, no output for a consistent task, no dependency found at update, edge without data, no output for an
   unaffected task) -- top-down, bottom-up and mixed sessions, after any number of aborted builds.  Built on NoReentry.v's
   anchor argument; adds frames for outputs, reserved edges and queue membership of the protected tasks, and the state invariant V. *)
From Coq Require Import List NArith Bool Permutation.
From PieV Require Import Model.Dag Model.Build Proofs.Local Proofs.Local2 Proofs.Steps Proofs.DagLib Proofs.Queue Proofs.DagWF Proofs.DagPath Proofs.DagFuel Proofs.StoreInv Proofs.ExecInv Proofs.ExecSession Proofs.NoBug4All Proofs.InvE Proofs.NoReentry.
Import ListNotations.
Open Scope N_scope.

Definition ConsO (w : world) : Prop := forall t, memN t (consistent w) = true -> get_task_output w t <> None \/ In t (opens (trace w)).
Definition OpenOut (w : world) : Prop := forall t, In t (opens (trace w)) -> get_task_output w t = None.
Definition CurOpen (w : world) : Prop := forall s, cur w = Some s -> In s (opens (trace w)).
Definition V (w : world) : Prop := NoRes w /\ ConsO w /\ OpenOut w /\ CurOpen w.

(* frames for the protected tasks: the anchor and its ancestors *)
Definition outF (c : task) (w w' : world) : Prop := forall t, Anc (gr w) c (tn t) -> get_task_output w' t = get_task_output w t.
Definition resF (c : task) (w w' : world) : Prop :=
  forall n, Anc (gr w) c n -> forall e, get_edata (gr w') n e = Some DReserved -> get_edata (gr w) n e = Some DReserved.
Definition quF (c : task) (w w' : world) : Prop := forall t, Anc (gr w) c (tn t) -> In t (queue w) -> In t (queue w').
Definition G (a : option task) (w w' : world) : Prop :=
  match a with None => True | Some c => outF c w w' /\ resF c w w' /\ quF c w w' end.

Lemma G_refl a w : G a w w.
Proof. destruct a as [c|]; [|exact Logic.I]. split; [intros t _; reflexivity|split; [intros n _ e X; exact X|intros t _ X; exact X]]. Qed.
Lemma G_trans a w1 w2 w3 : FrameO a w1 w2 -> G a w1 w2 -> G a w2 w3 -> G a w1 w3.
Proof.
  destruct a as [c|]; [|trivial]. intros F [O1 [R1 Q1]] [O2 [R2 Q2]]. split; [|split].
  - intros t A. rewrite (O2 t (anc_pres c w1 w2 _ F A)). apply O1. exact A.
  - intros n A e X. apply (R1 n A). apply (R2 n (anc_pres c w1 w2 _ F A)). exact X.
  - intros t A X. apply (Q2 t (anc_pres c w1 w2 _ F A)). apply (Q1 t A). exact X.
Qed.
Lemma G_weaken a t w w' : reach a w t -> G (Some t) w w' -> G a w w'.
Proof.
  intros R [O1 [R1 Q1]]. destruct a as [c|]; [|exact Logic.I]. specialize (R c eq_refl).
  assert (Sub : forall n, Anc (gr w) c n -> Anc (gr w) t n) by (intros n A; right; exact (anc_path _ c t n R A)).
  split; [intros x A; apply O1, Sub, A|split; [intros n A; apply R1, Sub, A|intros x A; apply Q1, Sub, A]].
Qed.

Definition lv (w w' : world) : Prop :=
  q3 w w' /\ outs w' = outs w /\ consistent w' = consistent w /\ (forall t, In t (queue w) -> In t (queue w')) /\
  (forall n e, get_edata (gr w') n e = Some DReserved -> get_edata (gr w) n e = Some DReserved).
Lemma lv_refl w : lv w w.
Proof. split; [apply q3_refl|]. split; [reflexivity|]. split; [reflexivity|]. split; [trivial|trivial]. Qed.
Lemma lv_trans a b c : lv a b -> lv b c -> lv a c.
Proof.
  intros [Q1 [O1 [C1 [U1 R1]]]] [Q2 [O2 [C2 [U2 R2]]]]. split; [eapply q3_trans; eassumption|].
  split; [congruence|]. split; [congruence|]. split; [intros t X; apply U2, U1, X|intros n e X; apply R1, R2, X].
Qed.
Lemma lv_same w w' : trace w' = trace w -> gr w' = gr w -> cur w' = cur w -> outs w' = outs w -> consistent w' = consistent w ->
  (forall t, In t (queue w) -> In t (queue w')) -> lv w w'.
Proof. intros T Gr C O Co Q. split; [apply q3_same; assumption|]. split; [exact O|]. split; [exact Co|]. split; [exact Q|intros n e; rewrite Gr; trivial]. Qed.
Lemma lv_emit w e : ev3 e = true -> lv w (emit w e).
Proof. intros H. split; [apply q3_emit; exact H|]. split; [reflexivity|]. split; [reflexivity|]. split; [trivial|trivial]. Qed.
Lemma lv_G a w w' : lv w w' -> G a w w'.
Proof.
  intros [_ [O [_ [U R]]]]. destruct a as [c|]; [|exact Logic.I]. split; [intros t _; unfold get_task_output; rewrite O; reflexivity|].
  split; [intros n _ e X; apply R; exact X|intros t _ X; apply U; exact X].
Qed.
Lemma lv_opens w w' : lv w w' -> opens (trace w') = opens (trace w).
Proof. intros H. apply q3_opens, H. Qed.
Lemma lv_V w w' : lv w w' -> V w -> V w'.
Proof.
  intros Hl [N [Co [Oo Cu]]]. pose proof (lv_opens w w' Hl) as Op. destruct Hl as [[_ [_ C]] [O [Cs [_ R]]]].
  split; [|split; [|split]].
  - intros t d X. unfold get_task_output. rewrite O. apply (N t d). apply R. exact X.
  - intros t X. rewrite Cs in X. unfold get_task_output. rewrite O, Op. apply Co. exact X.
  - intros t X. rewrite Op in X. unfold get_task_output. rewrite O. apply Oo. exact X.
  - intros s X. rewrite C in X. rewrite Op. apply Cu. exact X.
Qed.

Lemma lv_goc w n : lv w (goc w n).
Proof.
  split; [apply q3_goc|]. destruct (goc_spec w n) as [g [-> [_ [E _]]]]. split; [reflexivity|]. split; [reflexivity|]. split; [trivial|].
  intros m e. cbn. rewrite E. trivial.
Qed.
Lemma lv_goc_task w t : lv w (get_or_create_task_node w t). Proof. exact (lv_goc w (tn t)). Qed.
Lemma lv_goc_res w r : lv w (get_or_create_resource_node w r). Proof. exact (lv_goc w (rn r)). Qed.
Lemma lv_set_content w r v : lv w (set_content w r v). Proof. apply lv_same; destruct v; trivial. Qed.
Lemma lv_push_err w e : lv w (push_err w e). Proof. apply lv_same; trivial. Qed.
Lemma lv_queue_add w t : lv w (queue_add w t).
Proof.
  unfold queue_add. destruct (memN _ _); [apply lv_refl|]. apply lv_same; try reflexivity. intros x X. cbn. apply in_or_app. left. exact X.
Qed.
Lemma lv_add_dependency w s d dp : WF (gr w) -> dp <> DReserved -> fst (add_dependency w s d dp) <> AddBug -> lv w (snd (add_dependency w s d dp)).
Proof.
  intros W Hd NB. split; [apply q3_add_dependency; exact W|].
  pose proof (add_dependency_edata w s d dp W) as ED. destruct (add_dependency_gr w s d dp) as [g Eg].
  destruct (add_dependency w s d dp) as [[| |] w']; cbn [fst snd] in *; try (contradiction NB; reflexivity); subst w';
    (split; [reflexivity|]; split; [reflexivity|]; split; [trivial|]);
    intros n e X; (destruct (ED n e) as [E|[_ [_ [_ E]]]]; [rewrite <- E; exact X|rewrite E in X; inversion X; congruence]).
Qed.

Definition VPre (a : option task) (w : world) : Prop := Pre a w /\ V w.
Definition okV {A} (a : option task) (w : world) (m : outcome A) : Prop :=
  match m with
  | Done _ w' => G a w w' /\ V w'
  | Abort k w' => user_abort k /\ NoRes w'
  | OutOfFuel => True
  end.

Lemma lv_okV {A} a w w' (x : A) : lv w w' -> V w -> okV a w (Done x w').
Proof. intros Hl HV. split; [apply lv_G; exact Hl|eapply lv_V; eassumption]. Qed.
Lemma lv_okV_abort {A} a w w' k : user_abort k -> lv w w' -> V w -> okV a w (@Abort A k w').
Proof. intros Hk Hl HV. split; [exact Hk|]. apply (lv_V w w' Hl HV). Qed.

Lemma step_V {A} a w (m : outcome A) x w1 : VPre a w -> okR w m -> okN a w m -> okV a w m -> m = Done x w1 -> VPre a w1 /\ kept a w w1.
Proof. intros [Hw _] R N Vm E. destruct (step_N a w m x w1 Hw R N E) as [P1 X]. subst m. split; [split; [exact P1|apply Vm]|exact X]. Qed.
Lemma okV_preG {A} a w w2 (m : outcome A) : FrameO a w w2 -> G a w w2 -> okV a w2 m -> okV a w m.
Proof.
  intros F2 G2 Hm. destruct m as [x w'|k w'|]; cbn in *; [|exact Hm|exact Logic.I]. destruct Hm as [G3 V3].
  split; [eapply G_trans; eassumption|exact V3].
Qed.
Lemma okV_pre {A} a w w2 (m : outcome A) : lv w w2 -> okV a w2 m -> okV a w m.
Proof. intros Hl. apply okV_preG; [apply kgrow_FrameO; apply Hl|apply lv_G; exact Hl]. Qed.
Lemma bind_V {A B} a w (m : outcome A) (f : A -> world -> outcome B) :
  VPre a w -> okR w m -> okN a w m -> okV a w m ->
  (forall x w1, m = Done x w1 -> VPre a w1 -> cur w1 = cur w -> mono w w1 -> FrameO a w w1 -> G a w w1 -> okV a w1 (f x w1)) -> okV a w (bind m f).
Proof.
  intros Hw R N Vm F. eapply holds_bind; [exact Vm|]. intros x w1 E Vx.
  destruct (step_V a w m x w1 Hw R N Vm E) as [P1 [C1 [M1 [F1 _]]]].
  exact (okV_preG a w w1 _ F1 (proj1 Vx) (F x w1 E P1 C1 M1 F1 (proj1 Vx))).
Qed.
Lemma lv_VPre a w w' : lv w w' -> L w' -> VPre a w -> VPre a w'.
Proof. intros Hl L' [P HV]. split; [eapply q3_Pre; [apply Hl|exact L'|exact P]|eapply lv_V; eassumption]. Qed.

Lemma VPre_strengthen a t w : VPre a w -> reach a w t -> VPre (Some t) w.
Proof. intros [[HL [HO HN]] HV] R. split; [split; [exact HL|split; [eapply OI_strengthen; eassumption|exact HN]]|exact HV]. Qed.

(* a task reached from the anchor is not open (acyclicity), so if it is in the consistent set it has its output *)
Lemma consistent_out a w t : VPre a w -> reach a w t -> memN t (consistent w) = true -> get_task_output w t <> None.
Proof.
  intros Hw R Mc. destruct (proj1 (proj2 (proj2 Hw)) t Mc) as [X|X]; [exact X|].
  contradiction (reach_acyclic a w t (proj1 (proj1 (proj1 Hw))) (proj1 (proj2 (proj1 Hw))) R X).
Qed.

Section NBA.
Variable RC : rcid -> rchecker.
Variable OC : ocid -> ochecker.
Variable P : task -> prog.

Lemma user_hidden : user_abort AHidden. Proof. exact Logic.I. Qed.

Definition lvO {A} (w : world) (m : outcome A) : Prop :=
  match m with Done _ w' => lv w w' | Abort k w' => user_abort k /\ lv w w' | OutOfFuel => True end.

Lemma lstep_lv w w' : StoreOK w -> lstep w w' -> lv w w'.
Proof.
  intros H S. destruct S as [a e He|a r|a r v|a t r dp ar b _ [c [st Hdp]] _ E NB].
  - apply lv_emit. destruct e; try discriminate; reflexivity.
  - apply lv_goc.
  - apply lv_set_content.
  - replace b with (snd (add_dependency a (tn t) (rn r) dp)) by (rewrite E; reflexivity).
    apply lv_add_dependency; [apply H|destruct Hdp; subst dp; discriminate|rewrite E; exact NB].
Qed.
Lemma rw_lv {X} (o : rwop X) w : L w -> lvO w (run_rw RC o w).
Proof.
  intros HL. pose proof (rw_rel RC lv o w lv_refl lv_trans lstep_lv HL) as Y. pose proof (run_rw_R RC o w HL) as RR.
  pose proof (run_rw_chain RC o w) as C. destruct (run_rw RC o w) as [x w'|k w'|]; cbn in *; [exact Y| |exact Logic.I].
  split; [|exact Y]. destruct C as [[-> _]|[[->| ->] _]]; [contradiction (proj1 RR); reflexivity|exact Logic.I|exact Logic.I].
Qed.

Lemma lvO_okV {A} a w (m : outcome A) : lvO w m -> V w -> okV a w m.
Proof. destruct m; cbn; intros H HV; [split; [apply lv_G; exact H|eapply lv_V; eassumption]|destruct H as [Hk Hl]; split; [exact Hk|apply (lv_V _ _ Hl HV)]|exact Logic.I]. Qed.


Definition VREQ (req : world -> task -> ocid -> outcome Z) : Prop :=
  NREQ req /\ (forall w t c, VPre (cur w) w -> okV (cur w) w (req w t c)).
Definition VMC (mc : world -> task -> outcome Z) : Prop :=
  NMC mc /\ (forall a w t, VPre a w -> live (gr w) (tn t) = true -> reach a w t -> okV a w (mc w t)).

Lemma exec_prog_V req : VREQ req -> forall p w, VPre (cur w) w -> okV (cur w) w (exec_prog RC OC req p w).
Proof.
  intros [[HreqR HreqN] HreqV]. induction p as [o| |t c k IH|X o k IH] using prog_rw_ind; intros w Hw.
  - apply lv_okV; [apply lv_refl|apply Hw].
  - split; [exact Logic.I|apply Hw].
  - apply bind_V; [exact Hw|apply HreqR; apply Hw|apply HreqN; apply Hw|apply HreqV; exact Hw|].
    intros o w1 _ P1 C1 _ _ _. rewrite <- C1. apply IH. rewrite C1. exact P1.
  - rewrite exec_prog_rw.
    apply bind_V; [exact Hw|apply run_rw_R; apply Hw|apply q3O_okN; [apply rw_q3; apply Hw|apply Hw]|apply lvO_okV; [apply rw_lv; apply Hw|apply Hw]|].
    intros x w1 _ P1 C1 _ _ _. rewrite <- C1. apply IH. rewrite C1. exact P1.
Qed.

Lemma exec_start_V w t : StoreOK w -> V w -> ~ In t (opens (trace w)) -> V (startw w t).
Proof.
  intros H [N0 [Co0 [Oo0 Cu0]]] Hnot. destruct (reset_task_facts w t H) as [_ _ _ R4 R5 _ R7 _ R9 R10].
  set (w2 := startw w t).
  assert (Op2 : opens (trace w2) = t :: opens (trace w)) by (change (t :: opens (trace (reset_task w t)) = t :: opens (trace w)); rewrite R4; reflexivity).
  split; [|split; [|split]].
  - intros s d X. change (get_edata (gr (reset_task w t)) (tn s) d = Some DReserved) in X. change (get_task_output (reset_task w t) s = None).
    destruct (N.eq_dec s t) as [->|Hs]; [exact R9|]. rewrite (R10 s Hs). apply (N0 s d). rewrite <- (R7 (tn s) d); [exact X|].
    intros E. apply Hs. apply tn_inj. exact E.
  - intros x X. change (memN x (consistent (reset_task w t)) = true) in X. rewrite R5 in X. rewrite Op2.
    destruct (N.eq_dec x t) as [->|Hx]; [right; left; reflexivity|]. change (get_task_output (reset_task w t) x <> None \/ In x (t :: opens (trace w))).
    rewrite (R10 x Hx). destruct (Co0 x X) as [Y|Y]; [left; exact Y|right; right; exact Y].
  - intros x X. rewrite Op2 in X. change (get_task_output (reset_task w t) x = None). destruct X as [<-|X]; [exact R9|].
    assert (Hx : x <> t) by (intros ->; contradiction). rewrite (R10 x Hx). apply Oo0. exact X.
  - intros s X. cbn in X. inversion X; subst s. rewrite Op2. left. reflexivity.
Qed.

Lemma execute_with_V req a w t : VREQ req -> VPre a w -> live (gr w) (tn t) = true -> reach a w t ->
  okV a w (execute_with RC OC P req w t).
Proof.
  intros Hreq [Hw [N0 [Co0 [Oo0 Cu0]]]] Lt R. rewrite execute_with_eq.
  destruct (exec_start_Pre a w t Hw Lt R) as [Hnot [P2 PR]].
  destruct (reset_task_facts w t (proj1 (proj1 Hw))) as [R1 R2 R3 R4 R5 R6 R7 R8 R9 R10].
  set (w2 := startw w t) in *.
  assert (Op2 : opens (trace w2) = t :: opens (trace w)) by (change (t :: opens (trace (reset_task w t)) = t :: opens (trace w)); rewrite R4; reflexivity).
  assert (V2 : V w2) by (apply exec_start_V; [apply Hw|repeat split; assumption|exact Hnot]).
  pose proof (exec_prog_V req Hreq (P t) w2 (conj P2 V2)) as XV.
  pose proof (exec_prog_N RC OC req (proj1 Hreq) (P t) w2 P2) as XN.
  change (cur w2) with (Some t) in XV, XN.
  destruct (exec_prog RC OC req (P t) w2) as [o w3|k w3|]; cbn [bind okV] in *; [|exact XV|exact Logic.I].
  destruct XN as [C3 [F3 [O3 N3]]]. destruct XV as [[Of3 [Rf3 Qf3]] [N3' [Co3 [Oo3 Cu3]]]].
  set (wf := endw w3 t o (cur w)).
  assert (Outf : forall x, get_task_output wf x = if N.eqb x t then Some o else get_task_output w3 x).
  { intros x. exact (output_set _ t o x). }
  assert (Opf : opens (trace wf) = opens (trace w)).
  { change (removeN t (opens (trace w3)) = opens (trace w)). rewrite O3, Op2. unfold removeN. cbn [filter]. rewrite N.eqb_refl. cbn [negb].
    apply removeN_notin. exact Hnot. }
  split.
  - destruct a as [c|]; [|exact Logic.I].
    assert (NotT : forall n, Anc (gr w) c n -> n <> tn t) by (intros n A ->; exact (reach_not_anc (Some c) w t (proj1 (proj1 Hw)) R c eq_refl A)).
    specialize (R c eq_refl).
    assert (Up : forall n, Anc (gr w) c n -> Anc (gr w2) t n) by (intros n A; right; apply PR; exact (anc_path _ c t n R A)).
    split; [|split].
    + intros x A. rewrite Outf. assert (Hx : x <> t) by (intros ->; exact (NotT _ A eq_refl)).
      destruct (N.eqb_spec x t); [contradiction|]. rewrite (Of3 x (Up _ A)). apply (R10 x Hx).
    + intros n A e X. change (get_edata (gr w3) n e = Some DReserved) in X. apply (Rf3 n (Up n A)) in X.
      change (get_edata (gr (reset_task w t)) n e = Some DReserved) in X. rewrite (R7 n e (NotT n A)) in X. exact X.
    + intros x A X. change (In x (queue w3)). apply (Qf3 x (Up _ A)). exact X.
  - split; [|split; [|split]].
    + intros s d X. change (get_edata (gr w3) (tn s) d = Some DReserved) in X. rewrite Outf.
      destruct (N.eqb_spec s t) as [->|Hs]; [|apply (N3' s d X)].
      exfalso. apply (Rf3 (tn t) (or_introl eq_refl)) in X. change (get_edata (gr (reset_task w t)) (tn t) d = Some DReserved) in X. rewrite R8 in X. discriminate.
    + intros x X. change (memN x (consistent w3) = true) in X. rewrite Outf, Opf. destruct (N.eqb_spec x t) as [->|Hx]; [left; discriminate|].
      destruct (Co3 x X) as [Y|Y]; [left; exact Y|right]. rewrite O3, Op2 in Y. destruct Y as [Y|Y]; [congruence|exact Y].
    + intros x X. rewrite Opf in X. rewrite Outf. assert (Hx : x <> t) by (intros ->; contradiction). destruct (N.eqb_spec x t); [contradiction|].
      apply Oo3. rewrite O3, Op2. right. exact X.
    + intros s X. change (cur (reset_task w t) = Some s) in X. rewrite R6 in X. rewrite Opf. apply Cu0. exact X.
Qed.

Lemma pair_eqb_true a b c d : pair_eqb (a, b) (c, d) = true -> a = c /\ b = d.
Proof. unfold pair_eqb. cbn. intros H. apply andb_true_iff in H. destruct H as [H1 H2]. apply N.eqb_eq in H1, H2. split; assumption. Qed.

Lemma require_start a w t c : VPre a w ->
  lv w (at_require w t c) /\ VPre a (at_require w t c).
Proof.
  intros Hw. assert (Q2 : lv w (at_require w t c)) by (eapply lv_trans; [apply (lv_emit w (ERequireStart t c)); reflexivity|apply lv_goc]).
  split; [exact Q2|]. eapply lv_VPre; [exact Q2|apply goc_task_L; apply L_emit; apply Hw|exact Hw].
Qed.

(* what the reservation by the executing task s leaves behind, whether or not it finds a cycle: the start event, the node of t,
   and at most one new edge, s -> t, reserved *)
Record Reserved (w : world) (s t : task) (w3 : world) : Prop := mkReserved {
  rs_V : VPre (Some s) w3;
  rs_q3 : q3 w w3;
  rs_live : live (gr w3) (tn t) = true;
  rs_leaf : Leaf s w w3;
  rs_same : queue w3 = queue w /\ consistent w3 = consistent w /\ rstate w3 = rstate w /\ env w3 = env w;
  rs_res : forall n e, get_edata (gr w3) n e = Some DReserved -> get_edata (gr w) n e = Some DReserved \/ (n = tn s /\ e = tn t) }.
Lemma rs_outs w s t w3 : Reserved w s t w3 -> outs w3 = outs w.
Proof. intros RS. apply (lf_outs _ _ _ (rs_leaf _ _ _ _ RS)). Qed.
Lemma rs_rows w s t w3 : Reserved w s t w3 ->
  forall n, n <> tn s -> kids_of (gr w3) n = kids_of (gr w) n /\ forall e, get_edata (gr w3) n e = get_edata (gr w) n e.
Proof. intros RS n Hn. split; [apply (lf_grows _ _ _ (rs_leaf _ _ _ _ RS)), Hn|intros e; apply (lf_eother _ _ _ (rs_leaf _ _ _ _ RS)), Hn]. Qed.

Lemma reserve_pre w t c s : VPre (cur w) w -> cur w = Some s ->
  let w2 := at_require w t c in
  exists ar w3, add_dependency w2 (tn s) (tn t) DReserved = (ar, w3) /\
    reserve_require_dependency w2 t = match ar with AddOk => Done tt w3 | AddCycle => Abort ACycle w3 | AddBug => Abort (ABug 4) w3 end /\
    ar <> AddBug /\ Reserved w s t w3 /\ (ar = AddOk -> In (tn t) (kids_of (gr w3) (tn s))).
Proof.
  intros Hw Hc w2. destruct (require_start (cur w) w t c Hw) as [Q2 P2]. fold w2 in Q2, P2.
  assert (L2 : L w2) by apply P2. assert (W2 : WF (gr w2)) by apply L2.
  assert (C2 : cur w2 = Some s) by (rewrite <- Hc; apply Q2). rewrite Hc in P2.
  assert (Lt : live (gr w2) (tn t) = true) by apply live_goc_task.
  pose proof (reserve_R RC w2 t L2 Lt) as RR. pose proof (reserve_q3 w2 t L2) as RQ.
  unfold reserve_require_dependency in *. rewrite C2 in *.
  pose proof (add_dependency_edata w2 (tn s) (tn t) DReserved W2) as ED.
  destruct (add_dependency_gr w2 (tn s) (tn t) DReserved) as [g Eg].
  destruct (add_dependency w2 (tn s) (tn t) DReserved) as [ar w3] eqn:E. exists ar, w3. cbn [snd] in *. subst w3. set (w3 := set_gr w2 g) in *.
  assert (NB : ar <> AddBug) by (destruct ar; try discriminate; exfalso; apply (proj1 RR); reflexivity).
  assert (ED' : forall n e, get_edata (gr w3) n e = get_edata (gr w2) n e \/ (n = tn s /\ e = tn t)).
  { intros n e. destruct ar; try (contradiction NB; reflexivity); (destruct (ED n e) as [X|[X1 [X2 _]]]; [left; exact X|right; split; assumption]). }
  assert (RES3 : forall n e, get_edata (gr w3) n e = Some DReserved -> get_edata (gr w2) n e = Some DReserved \/ (n = tn s /\ e = tn t)).
  { intros n e X. destruct (ED' n e) as [Y|Y]; [left; rewrite <- Y; exact X|right; exact Y]. }
  (* V is kept: the source of the new reserved edge is open, so it has no output *)
  assert (V3 : V w3).
  { destruct (proj2 P2) as [N0 [Co0 [Oo0 Cu0]]]. split; [|split; [|split]].
    - intros x d X. destruct (RES3 _ _ X) as [Y|[Y1 _]]; [apply (N0 x d Y)|].
      apply tn_inj in Y1. subst x. apply Oo0, Cu0. exact C2.
    - exact Co0.
    - exact Oo0.
    - exact Cu0. }
  split; [reflexivity|]. split; [reflexivity|]. split; [exact NB|]. split; [|intros ->; apply (add_dependency_edge w2 (tn s) (tn t) DReserved w3 W2 E)].
  assert (RX : L w3 /\ mono w2 w3 /\ q3 w2 w3) by (destruct ar; [split; [apply RR|split; [apply RR|exact RQ]]..|contradiction NB; reflexivity]).
  destruct RX as [L3 [M3 Q3]].
  split.
  - split; [eapply q3_Pre; [exact Q3|exact L3|apply P2]|exact V3].
  - eapply q3_trans; [apply Q2|exact Q3].
  - apply M3, Lt.
  - pose proof (leaf_add_dependency s w2 (tn t) DReserved (proj1 L2) (tn_even t) ltac:(intros X; discriminate)) as A. rewrite E in A.
    eapply leaf_trans; [apply (leaf_require_start s w t c (proj1 (proj1 (proj1 Hw))))|destruct ar; [exact A|exact A|contradiction NB; reflexivity]].
  - clear. unfold w3, w2, at_require. destruct (goc_task_gr (emit w (ERequireStart t c)) t) as [g2 ->]. repeat split.
  - intros n e X. destruct (RES3 n e X) as [Y|Y]; [left; apply Q2; exact Y|right; exact Y].
Qed.

(* The course of Context::require once make_task_consistent is known to keep the bundle (VMC).  At top level: the sub-build,
   then the end event.  Under an executing task s: the reservation, which may find a cycle; else the sub-build under the
   anchor s, then the end event and the stamp on the reserved edge, which the sub-build has left in place (so that the
   "no dependency found" abort of update_require_dependency does not occur). *)
Definition recorded (w : world) (s t : task) (c : ocid) (st : Z) : world := set_gr w (insert_edata (gr w) (tn s) (tn t) (DRequire t c st)).

Lemma require_with_top mc w t c : VPre (cur w) w -> cur w = None -> VMC mc ->
  let w2 := at_require w t c in
  lv w w2 /\ VPre None w2 /\ live (gr w2) (tn t) = true /\
  require_with OC mc w t c = bind (mc w2 t) (fun o w4 => Done o (emit w4 (ERequireEnd t c (oc_stamp (OC c) o) o))).
Proof.
  intros Hw Hc [Hmc HmcV] w2. destruct (require_start (cur w) w t c Hw) as [Q2 P2]. fold w2 in Q2, P2. rewrite Hc in P2.
  assert (C2 : cur w2 = None) by (rewrite <- Hc; apply Q2). assert (Lt : live (gr w2) (tn t) = true) by apply live_goc_task.
  split; [exact Q2|]. split; [exact P2|]. split; [exact Lt|].
  unfold require_with. fold (at_require w t c). fold w2. unfold reserve_require_dependency. rewrite C2. cbn [bind]. apply bind_ext. intros o w4 E.
  destruct (step_V None w2 _ o w4 P2 (proj1 Hmc w2 t (proj1 (proj1 P2)) Lt) (proj2 Hmc None w2 t (proj1 P2) Lt ltac:(intros c' X; discriminate))
              (HmcV None w2 t P2 Lt ltac:(intros c' X; discriminate)) E) as [_ [C4 _]].
  unfold update_require_dependency. cbn [cur emit]. rewrite C4, C2. reflexivity.
Qed.

Lemma require_with_sub mc w t c s : VPre (cur w) w -> cur w = Some s -> VMC mc ->
  exists ar w3, add_dependency (at_require w t c) (tn s) (tn t) DReserved = (ar, w3) /\ Reserved w s t w3 /\
    match ar with
    | AddOk => In (tn t) (kids_of (gr w3) (tn s)) /\ reach (Some s) w3 t /\
        require_with OC mc w t c =
        bind (mc w3 t) (fun o w4 => Done o (recorded (emit w4 (ERequireEnd t c (oc_stamp (OC c) o) o)) s t c (oc_stamp (OC c) o)))
    | AddCycle => require_with OC mc w t c = Abort ACycle w3
    | AddBug => False
    end.
Proof.
  intros Hw Hc [Hmc HmcV]. destruct (reserve_pre w t c s Hw Hc) as [ar [w3 [E [RE [NB [RS Edge]]]]]]. exists ar, w3. split; [exact E|]. split; [exact RS|].
  unfold require_with. fold (at_require w t c). rewrite RE. destruct ar; [|reflexivity|apply NB; reflexivity]. specialize (Edge eq_refl).
  assert (R3 : reach (Some s) w3 t) by (intros c' X; inversion X; subst c'; apply path1; exact Edge).
  split; [exact Edge|]. split; [exact R3|]. cbn [bind]. apply bind_ext. intros o w4 E4.
  pose proof (rs_V _ _ _ _ RS) as P3. pose proof (rs_live _ _ _ _ RS) as Lt3.
  destruct (step_V (Some s) w3 _ o w4 P3 (proj1 Hmc w3 t (proj1 (proj1 P3)) Lt3) (proj2 Hmc (Some s) w3 t (proj1 P3) Lt3 R3)
              (HmcV (Some s) w3 t P3 Lt3 R3) E4) as [P4 [C4 [_ [F4 _]]]].
  (* the reserved edge is still there *)
  rewrite (update_edge (emit w4 (ERequireEnd t c (oc_stamp (OC c) o) o)) s t c _ (proj1 (proj1 (proj1 P4))));
    [reflexivity|cbn [cur emit]; rewrite C4, (proj2 (proj2 (rs_q3 _ _ _ _ RS))); exact Hc|apply F4; [left; reflexivity|exact Edge]].
Qed.

Lemma require_with_V mc : VMC mc -> VREQ (require_with OC mc).
Proof.
  intros HM. pose proof HM as [Hmc HmcV]. split; [apply (require_with_N RC); exact Hmc|].
  intros w t c Hw. destruct (cur w) as [s|] eqn:Hc.
  2:{ destruct (require_with_top mc w t c ltac:(rewrite Hc; exact Hw) Hc HM) as [Q2 [P2 [Lt ->]]].
    apply (okV_pre _ w _ _ Q2).
    apply bind_V; [exact P2|apply (proj1 Hmc); [apply P2|exact Lt]|apply (proj2 Hmc); [apply P2|exact Lt|intros c' X; discriminate]|
      exact (HmcV None _ t P2 Lt ltac:(intros c' X; discriminate))|].
    intros o w4 _ P4 _ _ _ _. apply lv_okV; [apply lv_emit; reflexivity|apply P4]. }
  destruct (require_with_sub mc w t c s ltac:(rewrite Hc; exact Hw) Hc HM) as [ar [w3 [_ [RS X]]]].
  destruct ar; [destruct X as [Edge [R3 ->]]|rewrite X; split; [exact Logic.I|apply RS]|destruct X].
  pose proof (rs_outs _ _ _ _ RS) as O3. destruct RS as [P3 Q3 Lt3 _ Qu3 RES3].
  eapply holds_bind; [exact (HmcV (Some s) w3 t P3 Lt3 R3)|]. intros o w4 E [[Of4 [Rf4 Qf4]] P4].
  cbn [holds]. unfold recorded. cbn [gr emit]. set (w6 := set_gr _ _).
  assert (ED6 : forall n e, get_edata (gr w6) n e = Some DReserved -> get_edata (gr w4) n e = Some DReserved /\ ~ (n = tn s /\ e = tn t)).
  { intros n e X. unfold w6 in X. cbn [gr set_gr] in X. rewrite get_edata_insert in X. destruct (pair_eqb (tn s, tn t) (n, e)) eqn:PE; [discriminate|].
    split; [exact X|]. intros [-> ->]. unfold pair_eqb in PE. cbn in PE. rewrite !N.eqb_refl in PE. discriminate. }
  destruct P4 as [N4' [Co4 [Oo4 Cu4]]]. split.
  - assert (A3 : forall n, Anc (gr w) s n -> Anc (gr w3) s n) by (intros n A; eapply anc_pres; [|exact A]; intros m _ x X; apply Q3; exact X).
    split; [|split].
    + intros x A. change (get_task_output w4 x = get_task_output w x). rewrite (Of4 x (A3 _ A)). unfold get_task_output. rewrite O3. reflexivity.
    + intros n A e X. destruct (ED6 n e X) as [X4 NE]. apply (Rf4 n (A3 n A)) in X4. destruct (RES3 n e X4) as [Y|Y]; [exact Y|contradiction].
    + intros x A X. change (In x (queue w4)). apply (Qf4 x (A3 _ A)). rewrite (proj1 Qu3). exact X.
  - split; [|split; [exact Co4|split; [exact Oo4|exact Cu4]]].
    intros x d X. destruct (ED6 _ _ X) as [X4 _]. change (get_task_output w4 x = None). apply (N4' x d X4).
Qed.

Lemma okV_weaken {A} a t w (m : outcome A) : reach a w t -> okV (Some t) w m -> okV a w m.
Proof. intros R Hm. destruct m as [x w'|k w'|]; cbn in *; [|exact Hm|exact Logic.I]. destruct Hm as [G1 V1]. split; [eapply G_weaken; eassumption|exact V1]. Qed.

Lemma step_V2 {A} a t w (m : outcome A) x w1 : VPre a w -> reach a w t -> okR w m -> okN (Some t) w m -> okV (Some t) w m -> m = Done x w1 ->
  VPre a w1 /\ reach a w1 t /\ kept a w w1.
Proof.
  intros Hw R RR N Vm E. destruct (step_V a w m x w1 Hw RR (okN_weaken a t w m R N) (okV_weaken a t w m R Vm) E) as [P1 K1]. subst m.
  exact (conj P1 (conj (reach_pres a t w w1 R (proj1 (proj2 N))) K1)).
Qed.
Lemma bind_V2 {A B} a t w (m : outcome A) (f : A -> world -> outcome B) :
  VPre a w -> reach a w t -> okR w m -> okN (Some t) w m -> okV (Some t) w m ->
  (forall x w1, VPre a w1 -> reach a w1 t -> cur w1 = cur w -> mono w w1 -> G (Some t) w w1 -> okV a w1 (f x w1)) -> okV a w (bind m f).
Proof.
  intros Hw R RR N Vm F. apply (bind_V a w m f Hw RR (okN_weaken a t w m R N) (okV_weaken a t w m R Vm)).
  intros x w1 E _ C1 M1 _ _. destruct (step_V2 a t w m x w1 Hw R RR N Vm E) as [P1 [R1 _]]. subst m. exact (F x w1 P1 R1 C1 M1 (proj1 Vm)).
Qed.
Lemma mark_G a w t : G a w (mark_consistent w t).
Proof. destruct a as [c|]; [|exact Logic.I]. split; [intros x _; reflexivity|split; [intros n _ e X; exact X|intros x _ X; exact X]]. Qed.
Lemma mark_V w t : V w -> get_task_output w t <> None -> V (mark_consistent w t).
Proof.
  intros [N0 [Co0 [Oo0 Cu0]]] Ho. split; [exact N0|]. split; [|split; [exact Oo0|exact Cu0]].
  intros x X. cbn [consistent mark_consistent set_consistent] in X. rewrite memN_cons in X. apply orb_true_iff in X.
  destruct X as [X|X]; [apply N.eqb_eq in X; subst x; left; exact Ho|apply Co0; exact X].
Qed.
Lemma mark_okV a w t (o : Z) : V w -> get_task_output w t <> None -> okV a w (Done o (mark_consistent w t)).
Proof. intros HV Ho. split; [apply mark_G|apply mark_V; assumption]. Qed.

Definition DGood (ds : list (option dep)) : Prop := forall d, In d ds -> d <> None /\ d <> Some DReserved.

Lemma check_resource_lv w r c st : lv w (snd (check_resource_td RC w r c st)).
Proof. unfold check_resource_td. cbn [snd]. eapply lv_trans; apply lv_emit; reflexivity. Qed.

Lemma check_resource_V a w r c st k : VPre a w -> (forall w1, lv w w1 -> VPre a w1 -> okV a w1 (k w1)) ->
  okV a w (after_check k (check_resource_td RC w r c st)).
Proof.
  intros Hw Hk. pose proof (check_resource_lv w r c st) as Q. destruct (check_resource_td_L RC w r c st (proj1 (proj1 Hw))) as [X _].
  destruct (check_resource_td RC w r c st) as [[| |e] w1]; cbn [snd after_check] in *.
  - apply (okV_pre _ w w1); [exact Q|]. apply Hk; [exact Q|eapply lv_VPre; eassumption].
  - apply lv_okV; [exact Q|apply Hw].
  - apply lv_okV; [eapply lv_trans; [exact Q|apply lv_push_err]|apply Hw].
Qed.

Lemma check_deps_V mc t0 : VMC mc -> forall ds w, VPre (Some t0) w -> DR t0 w ds -> DGood ds ->
  okV (Some t0) w (check_deps RC OC mc ds w).
Proof.
  intros [Hmc HmcV]. induction ds as [|d tl IH]; intros w Hw HR HG; cbn [check_deps]; [apply lv_okV; [apply lv_refl|apply Hw]|].
  assert (HGtl : DGood tl) by (intros x X; apply HG; right; exact X).
  destruct d as [[|t c st|r c st|r c st]|].
  - exfalso. destruct (HG (Some DReserved) (or_introl eq_refl)) as [_ X]. apply X. reflexivity.
  - set (w1 := emit w (ECheckTaskStart t c st)).
    assert (L1 : L w1) by (apply L_emit; apply Hw).
    assert (P1 : VPre (Some t0) w1) by (eapply lv_VPre; [apply (lv_emit w); reflexivity|exact L1|exact Hw]).
    assert (E1 : In (tn t) (kids_of (gr w1) (tn t0))) by (apply (HR t c st); left; reflexivity).
    assert (Lt : live (gr w1) (tn t) = true) by apply (wf_closed _ (proj1 (proj1 L1)) _ _ E1).
    assert (R1 : reach (Some t0) w1 t) by (intros s Hs; inversion Hs; subst s; apply path1; exact E1).
    apply (okV_pre _ w w1); [apply lv_emit; reflexivity|].
    apply bind_V; [exact P1|apply (proj1 Hmc); assumption|apply (proj2 Hmc); [apply P1|exact Lt|exact R1]|apply HmcV; assumption|].
    intros o w2 _ P2 C2 _ F2 G2. destruct (oc_check (OC c) o st).
    + set (w3 := emit w2 (ECheckTaskEnd t c st (negb true))).
      apply (okV_pre _ w2 w3); [apply lv_emit; reflexivity|].
      apply IH; [|eapply DR_tail; [exact HR|apply F2; left; reflexivity]|exact HGtl].
      eapply lv_VPre; [apply (lv_emit w2); reflexivity|apply L_emit; apply P2|exact P2].
    + apply lv_okV; [apply lv_emit; reflexivity|apply P2].
  - apply (check_resource_V (Some t0) w r c st (check_deps RC OC mc tl) Hw). intros w1 Q P1.
    apply IH; [exact P1|eapply DR_tail; [exact HR|intros x; apply Q]|exact HGtl].
  - apply (check_resource_V (Some t0) w r c st (check_deps RC OC mc tl) Hw). intros w1 Q P1.
    apply IH; [exact P1|eapply DR_tail; [exact HR|intros x; apply Q]|exact HGtl].
  - exfalso. destruct (HG None (or_introl eq_refl)) as [X _]. apply X. reflexivity.
Qed.

Lemma deps_good w t o : StoreOK w -> NoRes w -> get_task_output w t = Some o -> DGood (deps_of_task w t).
Proof.
  intros [W _] N Ho d Hin. rewrite deps_of_task_map in Hin.
  apply in_map_iff in Hin. destruct Hin as [v [E Hv]]. subst d. split.
  - apply (wf_edata _ W (tn t) v). exact Hv.
  - intros X. rewrite (N t v X) in Ho. discriminate.
Qed.

Theorem make_consistent_td_V fuel : VMC (make_consistent_td RC OC P fuel).
Proof.
  induction fuel as [|f IH]; (split; [apply make_consistent_td_N|]); intros a w t Hw Lt R; cbn [make_consistent_td]; [exact Logic.I|].
  set (w0 := get_or_create_task_node w t).
  assert (Q0 : lv w w0) by apply lv_goc.
  assert (L0 : L w0) by (apply goc_task_L; apply Hw).
  assert (P0 : VPre a w0) by (eapply lv_VPre; eassumption).
  assert (R0 : reach a w0 t) by (eapply reach_kgrow; [exact R|apply Q0]).
  assert (Lt0 : live (gr w0) (tn t) = true) by apply live_goc_task.
  apply (okV_pre a w w0 _ Q0).
  destruct (memN t (consistent w0)) eqn:Mc.
  { pose proof (consistent_out a w0 t P0 R0 Mc) as Ho. destruct (get_task_output w0 t); [apply lv_okV; [apply lv_refl|apply P0]|contradiction Ho; reflexivity]. }
  assert (Hreq : VREQ (require_with OC (make_consistent_td RC OC P f))) by (apply require_with_V; exact IH).
  assert (EX : forall w1, VPre a w1 -> reach a w1 t -> live (gr w1) (tn t) = true ->
            okV a w1 (bind (execute_with RC OC P (require_with OC (make_consistent_td RC OC P f)) w1 t) (fun o w2 => Done o (mark_consistent w2 t)))).
  { intros w1 P1 R1 Lt1. apply bind_V; [exact P1|apply execute_with_R; [exact (proj1 (proj1 Hreq))|apply P1|exact Lt1]|
      apply execute_with_N; [exact (proj1 Hreq)|apply P1|exact Lt1|exact R1]|apply execute_with_V; assumption|].
    intros o w2 E2 P2 _ _ _ _. apply mark_okV; [apply P2|rewrite (holds_done (execute_with_out RC OC P _ w1 t) E2); discriminate]. }
  destruct (get_task_output w0 t) as [o0|] eqn:Ho; [|apply EX; assumption].
  pose proof (VPre_strengthen a t w0 P0 R0) as PS.
  apply (bind_V2 a t w0 _ _ P0 R0).
  - apply check_deps_R; [apply make_consistent_td_L|exact L0].
  - apply check_deps_N; [exact (proj1 IH)|apply PS|apply deps_DR; apply L0].
  - apply check_deps_V; [exact IH|exact PS|apply deps_DR; apply L0|exact (deps_good w0 t o0 (proj1 L0) (proj1 (proj2 P0)) Ho)].
  - intros ok w1 P1 R1 _ M1 _. destruct (if ok then get_task_output w1 t else None) as [o|] eqn:Hc.
    + apply mark_okV; [apply P1|destruct ok; [rewrite Hc; discriminate|discriminate]].
    + apply EX; [exact P1|exact R1|apply M1; exact Lt0].
Qed.

Lemma sstep_lv w w' : sstep w w' -> lv w w'.
Proof.
  intros [a e He|a e|a t|a r]; [apply lv_emit; destruct e; try discriminate; reflexivity|apply lv_push_err|apply lv_queue_add|apply lv_goc].
Qed.
Lemma sched_lv w w' : chain sstep w w' -> lv w w'.
Proof. apply (chain_in sstep lv lv_refl lv_trans sstep_lv). Qed.
Lemma schedule_tasks_affected_by_lv w r : lv w (schedule_tasks_affected_by RC w r).
Proof. apply sched_lv, schedule_tasks_affected_by_chain. Qed.
Lemma schedule_after_split w t o : exists wm, lv w wm /\ schedule_after RC OC w t o = mark_consistent wm t.
Proof. destruct (schedule_after_chain RC OC w t o) as [wm [C E]]. exists wm. split; [apply sched_lv; exact C|exact E]. Qed.
Lemma schedule_after_okV a w t (o : Z) : V w -> get_task_output w t <> None -> okV a w (Done o (schedule_after RC OC w t o)).
Proof.
  intros HV Ho. destruct (schedule_after_split w t o) as [wm [Hl E]]. rewrite E.
  split; [eapply G_trans; [apply kgrow_FrameO; apply Hl|apply lv_G; exact Hl|apply mark_G]|].
  apply mark_V; [eapply lv_V; eassumption|]. unfold get_task_output. rewrite (proj1 (proj2 Hl)). exact Ho.
Qed.
Lemma require_bu_with_V mc : VMC mc -> (forall w t, outIs t (mc w t)) -> VREQ (require_bu_with OC mc).
Proof.
  intros Hmc Hout. split; [apply (require_bu_with_N RC); apply Hmc|].
  intros w t c Hw. unfold require_bu_with.
  destruct (require_with_V mc Hmc) as [[_ RN] RV]. eapply holds_bind; [exact (RV w t c Hw)|]. intros o w' E [G1 V1].
  pose proof (holds_done (RN w t c (proj1 Hw)) E) as XN.
  pose proof (holds_done (require_with_out OC mc w t c (fun w' => Hout w' t)) E) as RO.
  split; [eapply G_trans; [apply XN|exact G1|apply mark_G]|apply mark_V; [exact V1|rewrite RO; discriminate]].
Qed.

(* Done None: nothing was pulled for t *)
Definition rsnOut (t : task) (w : world) (m : outcome (option Z)) : Prop :=
  match m with Done None w' => get_task_output w' t = get_task_output w t /\ ~ In t (queue w) | _ => True end.

Lemma In_removeN_other' t x l : In x l -> x <> t -> In x (removeN t l).
Proof. intros X Hx. unfold removeN. apply filter_In. split; [exact X|]. destruct (N.eqb_spec t x); [congruence|reflexivity]. Qed.

(* popping m, which is reached from the anchor (so it is not protected) *)
Lemma pop_lv_G a w m : (forall c, a = Some c -> ~ Anc (gr w) c (tn m)) ->
  G a w (set_queue w (removeN m (sort_queue w))) /\ V w -> G a w (set_queue w (removeN m (sort_queue w))) /\ V (set_queue w (removeN m (sort_queue w))).
Proof. intros _ [X [N0 [Co0 [Oo0 Cu0]]]]. split; [exact X|]. split; [exact N0|split; [exact Co0|split; [exact Oo0|exact Cu0]]]. Qed.
Lemma pop_G a w m : (forall c, a = Some c -> ~ Anc (gr w) c (tn m)) -> G a w (popped w m).
Proof.
  intros NA. destruct a as [c|]; [|exact Logic.I]. split; [intros x _; reflexivity|split; [intros n _ e X; exact X|]].
  intros x A X. cbn. apply In_removeN_other'; [apply In_sort_queue; exact X|]. intros ->. exact (NA c eq_refl A).
Qed.
Lemma pop_FrameO a w q : FrameO a w (set_queue w q).
Proof. apply kgrow_FrameO. intros n x X. exact X. Qed.
Lemma pop_V w q : V w -> V (set_queue w q).
Proof. intros [N0 [Co0 [Oo0 Cu0]]]. split; [exact N0|split; [exact Co0|split; [exact Oo0|exact Cu0]]]. Qed.

Lemma popped_VPre a w m : VPre a w -> In m (queue w) -> q3 w (popped w m) /\ live (gr (popped w m)) (tn m) = true /\ VPre a (popped w m).
Proof.
  intros Hw Im. destruct (popped_Pre a w m (proj1 Hw) Im) as [Q1 [Lm P1]].
  split; [exact Q1|]. split; [exact Lm|]. split; [exact P1|apply pop_V; apply Hw].
Qed.
Lemma queue_pop_V w t w1 : VPre None w -> queue_pop w = Some (t, w1) ->
  w1 = popped w t /\ live (gr w1) (tn t) = true /\ VPre None w1.
Proof. intros Hw X. destruct (queue_pop_popped w t w1 X) as [It ->]. split; [reflexivity|apply (popped_VPre None w t Hw It)]. Qed.

Definition VBU (fuel : nat) : Prop :=
  (forall a w t, VPre a w -> live (gr w) (tn t) = true -> reach a w t -> okV a w (bu_execute_and_schedule RC OC P fuel w t)) /\
  (forall a w t, VPre a w -> live (gr w) (tn t) = true -> reach a w t -> okV a w (bu_make_consistent RC OC P fuel w t)) /\
  (forall a w t, VPre a w -> reach a w t ->
     okV a w (bu_require_scheduled_now RC OC P fuel w t) /\ rsnOut t w (bu_require_scheduled_now RC OC P fuel w t)).

(* the three ways bu_require_scheduled_now goes on: nothing to pull (neither t nor a transitive dependency of t is queued); t
   itself is pulled and executed; a transitive dependency m of t is pulled, executed (under the anchor t), and the search goes on *)
Inductive rsn_case (f : nat) (a : option task) (w : world) (t : task) : outcome (option Z) -> Prop :=
| rsn_none : (forall x, t = x \/ path (gr w) (tn t) (tn x) -> ~ In x (queue w)) -> rsn_case f a w t (Done None w)
| rsn_self w1 : w1 = popped w t -> VPre a w1 -> reach a w1 t -> live (gr w1) (tn t) = true -> G a w w1 -> In t (queue w) ->
    rsn_case f a w t (bind (bu_execute_and_schedule RC OC P f w1 t) (fun o w2 => Done (Some o) w2))
| rsn_dep m w1 : w1 = popped w m -> m <> t -> VPre a w1 -> reach a w1 t -> live (gr w1) (tn m) = true ->
    path (gr w1) (tn t) (tn m) -> G a w w1 -> In m (queue w) ->
    rsn_case f a w t (bind (bu_execute_and_schedule RC OC P f w1 m) (fun _ w2 => bu_require_scheduled_now RC OC P f w2 t)).

Lemma rsn_cases f a w t : VPre a w -> reach a w t -> rsn_case f a w t (bu_require_scheduled_now RC OC P (S f) w t).
Proof.
  intros Hw R. rewrite rsn_S. assert (W : WF (gr w)) by apply Hw.
  destruct (queue w) as [|q0 qs] eqn:Qe; [apply rsn_none; rewrite Qe; intros x _ []|]. clear Qe q0 qs.
  destruct (pop_least_from w t) as [[m w1]|] eqn:X.
  2:{ apply rsn_none. intros x Rx Ix. pose proof (pop_least_from_none w t X x Ix) as El. unfold eligible in El. apply orb_false_iff in El. destruct El as [E1 E2].
      destruct Rx as [<-|Pth]; [rewrite N.eqb_refl in E1; discriminate|]. unfold contains_transitive_task_dependency in E2.
      destruct (contains_transitive_edge (gr w) (tn t) (tn x)) as [bb|] eqn:Y; [|exact (contains_transitive_edge_answers _ _ _ W Y)].
      assert (bb = true) by (apply (contains_transitive_edge_spec _ _ _ _ W Y); exact Pth). subst bb. discriminate. }
  destruct (pop_least_popped w t m w1 X) as [Im W1]. destruct (popped_VPre a w m Hw Im) as [Q1 [Lm1 P1]]. rewrite <- W1 in Q1, Lm1, P1.
  assert (R1 : reach a w1 t) by (eapply reach_kgrow; [exact R|apply Q1]).
  destruct (pop_least_reach w t m w1 (proj1 (proj1 (proj1 Hw))) X) as [Em|Pm].
  - subst m. rewrite N.eqb_refl. apply rsn_self; [exact W1|exact P1|exact R1|exact Lm1| |exact Im].
    rewrite W1. apply pop_G. apply reach_not_anc; [apply Hw|exact R].
  - assert (Hmt : m <> t) by (intros ->; exact (WF_acyclic (gr w) (tn t) W Pm)).
    destruct (N.eqb_spec m t) as [|_]; [contradiction|].
    apply rsn_dep; [exact W1|exact Hmt|exact P1|exact R1|exact Lm1|rewrite W1; exact Pm| |exact Im].
    rewrite W1. apply pop_G. apply reach_not_anc; [apply Hw|]. intros c Hc. eapply path_trans; [apply R; exact Hc|exact Pm].
Qed.

Lemma bu_VMC f : VBU f -> VMC (bu_make_consistent RC OC P f) /\ VREQ (require_bu_with OC (bu_make_consistent RC OC P f)).
Proof.
  intros [_ [BV2 _]].
  assert (Hmc : VMC (bu_make_consistent RC OC P f)) by (split; [split; [apply (bottom_up_R RC OC P f)|apply (bottom_up_N RC OC P f)]|exact BV2]).
  split; [exact Hmc|apply require_bu_with_V; [exact Hmc|apply (bu_out RC OC P f)]].
Qed.

Theorem bottom_up_V fuel : VBU fuel.
Proof.
  induction fuel as [|f IH]; [repeat split; intros; exact Logic.I|].
  destruct (bu_VMC f IH) as [Hmc Hreq]. destruct IH as [IH1 [IH2 IH3]].
  destruct (bottom_up_R RC OC P f) as [BR1 _]. destruct (bottom_up_N RC OC P f) as [BN1 _].
  assert (E1 : forall a w t, VPre a w -> live (gr w) (tn t) = true -> reach a w t -> okV a w (bu_execute_and_schedule RC OC P (S f) w t)).
  { intros a w t Hw Lt R. rewrite bes_S.
    apply bind_V; [exact Hw|apply execute_with_R; [exact (proj1 (proj1 Hreq))|apply Hw|exact Lt]|
      apply execute_with_N; [exact (proj1 Hreq)|apply Hw|exact Lt|exact R]|apply execute_with_V; assumption|].
    intros o w1 E P1 _ _ _ _. apply schedule_after_okV; [apply P1|rewrite (holds_done (execute_with_out RC OC P _ w t) E); discriminate]. }
  assert (E3 : forall a w t, VPre a w -> reach a w t ->
     okV a w (bu_require_scheduled_now RC OC P (S f) w t) /\ rsnOut t w (bu_require_scheduled_now RC OC P (S f) w t)).
  { intros a w t Hw R. destruct (rsn_cases f a w t Hw R) as [Hn|w1 W1 P1 R1 Lt1 GP|m w1 W1 Hmt P1 R1 Lm1 Pm1 GP].
    - split; [apply lv_okV; [apply lv_refl|apply Hw]|split; [reflexivity|exact (Hn t (or_introl eq_refl))]].
    - split; [|destruct (bu_execute_and_schedule RC OC P f w1 t); exact Logic.I].
      apply (okV_preG a w w1); [rewrite W1; apply pop_FrameO|exact GP|].
      apply bind_V; [exact P1|apply BR1; [apply P1|exact Lt1]|apply BN1; [apply P1|exact Lt1|exact R1]|apply IH1; assumption|].
      intros o w2 _ P2 _ _ _ _. apply lv_okV; [apply lv_refl|apply P2].
    - (* a dependency m of t is executed under the anchor t, which protects t: its output and its place in the queue stay *)
      pose proof (VPre_strengthen a t w1 P1 R1) as PS.
      assert (RS : reach (Some t) w1 m) by (intros c Hc; inversion Hc; subst c; exact Pm1).
      pose proof (BR1 w1 m (proj1 (proj1 P1)) Lm1) as XR. pose proof (BN1 (Some t) w1 m (proj1 PS) Lm1 RS) as XN. pose proof (IH1 (Some t) w1 m PS Lm1 RS) as XV.
      set (mm := bind _ _).
      enough (X : okV a w1 mm /\ rsnOut t w mm) by (split; [apply (okV_preG a w w1); [rewrite W1; apply pop_FrameO|exact GP|apply X]|apply X]).
      unfold mm. destruct (bu_execute_and_schedule RC OC P f w1 m) as [o w2|k w2|]; cbn [bind]; [|split; [exact XV|exact Logic.I]|split; exact Logic.I].
      destruct (step_V2 a t w1 _ o w2 P1 R1 XR XN XV eq_refl) as [P2 [R2 [_ [_ [F2 _]]]]]. destruct XV as [G2 _].
      destruct (IH3 a w2 t P2 R2) as [ZV ZO]. split; [exact (okV_preG a w1 w2 _ F2 (G_weaken a t w1 w2 R1 G2) ZV)|].
      destruct (bu_require_scheduled_now RC OC P f w2 t) as [[o'|] w3|k w3|]; cbn [rsnOut] in *; [exact Logic.I| |exact Logic.I|exact Logic.I].
      destruct ZO as [Y1 Y2]. destruct G2 as [Of2 [_ Qf2]]. split.
      + rewrite Y1, (Of2 t (or_introl eq_refl)), W1. reflexivity.
      + intros Hin. apply Y2, (Qf2 t (or_introl eq_refl)). rewrite W1. cbn. apply In_removeN_other'; [apply In_sort_queue; exact Hin|congruence]. }
  split; [exact E1|]. split; [|exact E3].
  intros a w t Hw Lt R. rewrite bmc_S.
  destruct (memN t (consistent w)) eqn:Mc.
  { pose proof (consistent_out a w t Hw R Mc) as Ho. destruct (get_task_output w t); [apply lv_okV; [apply lv_refl|apply Hw]|contradiction Ho; reflexivity]. }
  destruct ((match get_task_output w t with None => true | Some _ => false end) && negb (memN t (queue w)))%bool eqn:Cond;
    [apply (execute_with_V _ a w t Hreq Hw Lt R)|].
  destruct (IH3 a w t Hw R) as [XV XO]. eapply holds_bind; [exact XV|]. intros r w1 E V1. rewrite E in XO.
  destruct r as [o|]; [exact V1|]. destruct XO as [Y1 Y2].
  destruct (get_task_output w1 t) as [o|] eqn:Ho1; [exact V1|]. exfalso.
  (* nothing was pulled for t: its output is as before and it is not queued, so it would have been executed as new *)
  rewrite <- Y1 in Cond. cbn in Cond. apply memN_false in Y2. rewrite Y2 in Cond. discriminate.
Qed.

Theorem execute_scheduled_V fuel : forall w, VPre None w -> okV None w (execute_scheduled RC OC P fuel w).
Proof.
  induction fuel as [|f IH]; intros w Hw; [exact Logic.I|]. rewrite es_S.
  destruct (queue_pop w) as [[t w1]|] eqn:X; [|apply lv_okV; [apply lv_refl|apply Hw]].
  destruct (queue_pop_V w t w1 Hw X) as [_ [Lt1 P1]].
  assert (R1 : reach None w1 t) by (intros c Hc; discriminate).
  apply (okV_preG None w w1 _ Logic.I Logic.I).
  apply bind_V; [exact P1|apply (bottom_up_R RC OC P f); [apply P1|exact Lt1]|apply (bottom_up_N RC OC P f); [apply P1|exact Lt1|exact R1]|
                 apply (proj1 (bottom_up_V f) None w1 t P1 Lt1 R1)|].
  intros _ w2 _ P2 _ _ _ _. apply IH. exact P2.
Qed.

Variable always : ocid.

Definition VS (w : world) : Prop := SPre w /\ V w.
Definition okVS {A} (m : outcome A) : Prop :=
  match m with Done _ w' => VS w' | Abort k w' => user_abort k /\ L w' /\ NoRes w' | OutOfFuel => True end.

Lemma build_start_V w : VS w -> VPre None (emit (set_cur w None) EBuildStart).
Proof.
  intros [[Hw Hc] HV]. eapply lv_VPre; [|apply L_emit, L_set_cur_none; apply Hw|split; [exact Hw|exact HV]].
  eapply lv_trans; [apply (lv_same w (set_cur w None)); try reflexivity; [cbn; symmetry; exact Hc|trivial]|apply lv_emit; reflexivity].
Qed.
Lemma sched_changed_VS w ch : VS w ->
  chain sstep (set_queue w []) (fold_left (schedule_tasks_affected_by RC) ch (set_queue w [])) /\ VS (fold_left (schedule_tasks_affected_by RC) ch (set_queue w [])).
Proof.
  intros [[Hw Hc] HV].
  destruct (fold_affected_L RC ch _ (L_set_queue_nil w (proj1 Hw))) as [L1 _]. set (w1 := fold_left (schedule_tasks_affected_by RC) ch (set_queue w [])) in *.
  assert (C01 : chain sstep (set_queue w []) w1) by (apply chain_fold; intros; apply schedule_tasks_affected_by_chain).
  pose proof (sched_lv _ _ C01) as Q01. split; [exact C01|]. split; [split|].
  - eapply q3_Pre; [apply Q01|exact L1|]. split; [exact (L_set_queue_nil w (proj1 Hw))|split; apply Hw].
  - rewrite (proj2 (proj2 (proj1 Q01))). exact Hc.
  - eapply lv_V; [exact Q01|apply pop_V; exact HV].
Qed.

Lemma session_require_V fuel w t : VS w -> okVS (session_require RC OC P always fuel w t).
Proof.
  intros HS. pose proof (session_require_N RC OC P always fuel w t (proj1 HS)) as SN.
  pose proof (session_require_R RC OC P always fuel w t (proj1 (proj1 (proj1 HS)))) as SR.
  unfold session_require, require_td in *.
  pose proof (proj2 (require_with_V _ (make_consistent_td_V fuel)) _ t always (build_start_V w HS)) as RV. cbn [cur emit set_cur] in RV.
  destruct (require_with OC (make_consistent_td RC OC P fuel) (emit (set_cur w None) EBuildStart) t always) as [o w2|k w2|]; cbn [bind okVS okV okS okR] in *; [| |exact Logic.I].
  - split; [exact SN|]. eapply lv_V; [apply (lv_emit w2 EBuildEnd); reflexivity|apply RV].
  - split; [apply RV|]. split; [apply SR|apply RV].
Qed.

Lemma session_bottom_up_V fuel w ch : VS w -> okVS (session_bottom_up RC OC P fuel w ch).
Proof.
  intros HS. pose proof (session_bottom_up_N RC OC P fuel w ch (proj1 HS)) as SN.
  pose proof (session_bottom_up_R RC OC P fuel w ch (proj1 (proj1 (proj1 HS)))) as SR.
  unfold session_bottom_up in *. cbv zeta in *. destruct (sched_changed_VS w ch HS) as [_ S1].
  pose proof (execute_scheduled_V fuel _ (build_start_V _ S1)) as XV.
  destruct (execute_scheduled RC OC P fuel _) as [u w3|k w3|]; cbn [bind okVS okV okS okR] in *; [| |exact Logic.I].
  - split; [exact SN|]. eapply lv_V; [apply (lv_emit w3 EBuildEnd); reflexivity|apply XV].
  - split; [apply XV|]. split; [apply SR|apply XV].
Qed.

Definition Hinv (w : world) : Prop := L w /\ NoRes w.
Lemma Hinv_init : Hinv init_world. Proof. split; [apply L_init|intros t d X; discriminate]. Qed.

Lemma Hinv_set_content w r v : Hinv w -> Hinv (set_content w r v).
Proof. intros Hw. split; [apply L_set_content; apply Hw|]. intros t d Y. destruct v; apply (proj2 Hw t d Y). Qed.
Lemma Hinv_set_env w e : Hinv w -> Hinv (set_env w e).
Proof. intros Hw. split; [apply L_set_env; apply Hw|exact (proj2 Hw)]. Qed.
Lemma VS_Hinv w : VS w -> Hinv w.
Proof. intros Hw. split; apply Hw. Qed.
Lemma VS_new_session w : Hinv w -> VS (new_session w).
Proof.
  intros [HL HN]. split; [apply SPre_new_session; exact HL|]. split; [exact HN|]. split; [intros t X; discriminate|]. split; [intros t []|intros s X; discriminate].
Qed.

Lemma run_session_V fuel ops : forall w, VS w ->
  Forall good_res (fst (run_session RC OC P always fuel w ops)) /\ Hinv (snd (run_session RC OC P always fuel w ops)).
Proof. exact (run_session_any RC OC P always Hinv VS user_abort VS_Hinv (fun f w t => session_require_V f w t) (fun f w ch => session_bottom_up_V f w ch) fuel ops). Qed.

Theorem run_history_V fuel h : forall w, Hinv w ->
  Forall (Forall good_res) (fst (run_history RC OC P always fuel w h)) /\ Hinv (snd (run_history RC OC P always fuel w h)).
Proof.
  apply (run_history_any RC OC P always Hinv VS user_abort).
  - exact VS_Hinv.
  - intros f w t. apply session_require_V.
  - intros f w ch. apply session_bottom_up_V.
  - exact VS_new_session.
  - exact Hinv_set_content.
  - exact Hinv_set_env.
Qed.

(* C19, EVERY history -- top-down, bottom-up and mixed sessions, any number of aborted builds: every build either completes or aborts
   for a user-level reason (task panic, cyclic dependency, hidden dependency, overlapping write); none of the implementation's
   internal "BUG" panics can occur, and the store invariants survive *)
Theorem no_internal_error_any_history fuel h :
  Forall (Forall good_res) (fst (run_history RC OC P always fuel init_world h)) /\
  StoreOK (snd (run_history RC OC P always fuel init_world h)) /\ NoRes (snd (run_history RC OC P always fuel init_world h)).
Proof.
  destruct (run_history_V fuel h init_world) as [A [B C]]; [apply Hinv_init|].
  split; [exact A|split; [apply B|exact C]].
Qed.

End NBA.
