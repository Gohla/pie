(* Basic lemmas about the representation of the DAG model (association lists, adjacency lists), and about sort_by, the model of
   sort_unstable_by on unique topological ranks: sortedness, permutation, and independence of the order in which an unordered
   container hands over its elements (C16). *)
From Coq Require Import List NArith Bool Lia Permutation Sorted.
From PieV Require Import Model.Dag.
Import ListNotations.
Open Scope N_scope.

Lemma memN_In x l : memN x l = true <-> In x l.
Proof.
  unfold memN. rewrite existsb_exists. split.
  - intros [y [Hin Hy]]. apply N.eqb_eq in Hy. subst. exact Hin.
  - intros H. exists x. split; [exact H|apply N.eqb_refl].
Qed.
Lemma memN_false x l : memN x l = false <-> ~ In x l.
Proof. rewrite <- memN_In. destruct (memN x l); split; congruence. Qed.
Lemma memN_cons x t l : memN x (t :: l) = N.eqb x t || memN x l. Proof. reflexivity. Qed.

Lemma In_removeN x t l : In x (removeN t l) <-> In x l /\ x <> t.
Proof.
  unfold removeN. rewrite filter_In. split; intros [A B]; split; try exact A.
  - intros E. subst. rewrite N.eqb_refl in B. discriminate.
  - destruct (N.eqb t x) eqn:E; [apply N.eqb_eq in E; congruence|reflexivity].
Qed.
Lemma removeN_notin x l : ~ In x l -> removeN x l = l.
Proof.
  intros H. unfold removeN. induction l as [|y tl IH]; cbn; [reflexivity|].
  destruct (N.eqb x y) eqn:E.
  - apply N.eqb_eq in E. subst. exfalso. apply H. left. reflexivity.
  - cbn. f_equal. apply IH. intros X. apply H. right. exact X.
Qed.
Lemma NoDup_app_intro_t {A} (l1 l2 : list A) : NoDup l1 -> NoDup l2 -> (forall x, In x l1 -> In x l2 -> False) -> NoDup (l1 ++ l2).
Proof.
  induction l1 as [|x tl IH]; intros H1 H2 D; cbn; [exact H2|]. inversion H1; subst. constructor.
  - intros X. apply in_app_or in X. destruct X as [X|X]; [contradiction|]. apply (D x); [left; reflexivity|exact X].
  - apply IH; try assumption. intros y Y1 Y2. apply (D y); [right; exact Y1|exact Y2].
Qed.
Lemma NoDup_app_single (x : N) l : NoDup l -> ~ In x l -> NoDup (l ++ [x]).
Proof. intros Hn Hx. apply NoDup_app_intro_t; [exact Hn|repeat constructor; intros []|]. intros y Y [<-|[]]. exact (Hx Y). Qed.
Lemma NoDup_map_key {T} (key : T -> N) l : NoDup l -> (forall x y, In x l -> In y l -> key x = key y -> x = y) -> NoDup (map key l).
Proof.
  induction l as [|x tl IH]; intros Hn Hi; cbn; [constructor|]. inversion Hn; subst. constructor.
  - intros X. apply in_map_iff in X. destruct X as [y [E Y]]. assert (y = x) by (apply Hi; [right; exact Y|left; reflexivity|exact E]). subst. contradiction.
  - apply IH; [assumption|]. intros a b A B'. apply Hi; right; assumption.
Qed.

Lemma filter_true_id {A} (f : A -> bool) l : (forall x, In x l -> f x = true) -> filter f l = l.
Proof. induction l as [|x tl IH]; intros H; cbn; [reflexivity|]. rewrite (H x (or_introl eq_refl)). f_equal. apply IH. intros y Y. apply H. right. exact Y. Qed.
Lemma filter_false_nil {A} (l : list A) : filter (fun _ => false) l = [].
Proof. induction l; cbn; [reflexivity|assumption]. Qed.
Lemma removeN_filter n l : removeN n l = filter (fun y => negb (N.eqb y n)) l.
Proof. unfold removeN. apply filter_ext. intros y. rewrite N.eqb_sym. reflexivity. Qed.

Lemma if3_early {T} (c1 c2 c3 : bool) (A B C R : T) :
  c1 || c2 || c3 = true -> (if c1 then A else if c2 then B else if c3 then C else R) = (if c1 then A else if c2 then B else C).
Proof. destruct c1, c2, c3; try reflexivity; discriminate. Qed.

Lemma lhs_insert_new x l : ~ In x l -> lhs_insert x l = (true, l ++ [x]).
Proof. intros H. unfold lhs_insert. rewrite (removeN_notin x l H), (proj2 (memN_false x l) H). reflexivity. Qed.

Lemma nodupN_In x l : In x (nodupN l) <-> In x l.
Proof.
  induction l as [|y tl IH]; cbn; [reflexivity|].
  destruct (memN y tl) eqn:E.
  - rewrite IH. split; [intros X; right; exact X|]. intros [X|X]; [|exact X]. subst. apply memN_In. exact E.
  - cbn. rewrite IH. reflexivity.
Qed.
Lemma nodupN_NoDup l : NoDup (nodupN l).
Proof.
  induction l as [|y tl IH]; cbn; [constructor|].
  destruct (memN y tl) eqn:E; [exact IH|]. constructor; [|exact IH].
  rewrite nodupN_In. apply memN_false. exact E.
Qed.

Section Lib.
Context {ED : Type}.
Implicit Types g : dag ED.

Lemma get_info_l_app l1 l2 n :
  get_info_l (l1 ++ l2) n = match get_info_l l1 n with Some i => Some i | None => get_info_l l2 n end.
Proof.
  induction l1 as [|[m i] tl IH]; cbn; [reflexivity|]. destruct (N.eqb m n); [reflexivity|exact IH].
Qed.

Lemma get_info_l_none l n : get_info_l l n = None <-> ~ In n (map fst l).
Proof.
  induction l as [|[m i] tl IH]; cbn; [tauto|].
  destruct (N.eqb m n) eqn:E.
  - apply N.eqb_eq in E. subst. split; [discriminate|]. intros X. exfalso. apply X. left. reflexivity.
  - rewrite IH. apply N.eqb_neq in E. split; [intros X [Y|Y]; [exact (E Y)|exact (X Y)]|intros X Y; exact (X (or_intror Y))].
Qed.
Lemma get_info_l_some_in l n i : get_info_l l n = Some i -> In (n, i) l.
Proof.
  induction l as [|[m j] tl IH]; cbn; [discriminate|].
  destruct (N.eqb m n) eqn:E.
  - apply N.eqb_eq in E. subst. intros X. inversion X. left. reflexivity.
  - intros X. right. apply IH. exact X.
Qed.
Lemma get_info_l_in l n i : NoDup (map fst l) -> In (n, i) l -> get_info_l l n = Some i.
Proof.
  induction l as [|[m j] tl IH]; cbn; [intros _ []|]. intros Hn [X|X].
  - inversion X; subst. rewrite N.eqb_refl. reflexivity.
  - inversion Hn; subst. destruct (N.eqb m n) eqn:E.
    + apply N.eqb_eq in E. subst. exfalso. apply H1. change n with (fst (n, i)). apply in_map. exact X.
    + apply IH; assumption.
Qed.

Lemma map_fst_upd l n f : map fst (upd_info_l l n f) = map fst l.
Proof. unfold upd_info_l. rewrite map_map. apply map_ext. intros [m i]. cbn. destruct (N.eqb m n); reflexivity. Qed.

Lemma get_info_upd_l l n f m :
  get_info_l (upd_info_l l n f) m = if N.eqb m n then option_map f (get_info_l l m) else get_info_l l m.
Proof.
  induction l as [|[k i] tl IH]; cbn; [destruct (N.eqb m n); reflexivity|].
  destruct (N.eqb k n) eqn:E1; cbn.
  - destruct (N.eqb k m) eqn:E2.
    + apply N.eqb_eq in E1, E2. subst. rewrite N.eqb_refl. reflexivity.
    + exact IH.
  - destruct (N.eqb k m) eqn:E2.
    + apply N.eqb_eq in E2. subst. rewrite E1. reflexivity.
    + exact IH.
Qed.

Lemma get_info_upd g n f m :
  get_info (upd_info g n f) m = if N.eqb m n then option_map f (get_info g m) else get_info g m.
Proof. unfold get_info, upd_info. cbn. apply get_info_upd_l. Qed.

Lemma live_upd g n f m : live (upd_info g n f) m = live g m.
Proof. unfold live. rewrite get_info_upd. destruct (N.eqb m n); [destruct (get_info g m)|]; reflexivity. Qed.

Lemma rank_of_upd g n f m :
  rank_of (upd_info g n f) m = if N.eqb m n then match get_info g m with Some i => rank (f i) | None => 0 end else rank_of g m.
Proof. unfold rank_of. rewrite get_info_upd. destruct (N.eqb m n); [destruct (get_info g m)|]; reflexivity. Qed.
Lemma kids_of_upd g n f m :
  kids_of (upd_info g n f) m = if N.eqb m n then match get_info g m with Some i => kids (f i) | None => [] end else kids_of g m.
Proof. unfold kids_of. rewrite get_info_upd. destruct (N.eqb m n); [destruct (get_info g m)|]; reflexivity. Qed.
Lemma pars_of_upd g n f m :
  pars_of (upd_info g n f) m = if N.eqb m n then match get_info g m with Some i => pars (f i) | None => [] end else pars_of g m.
Proof. unfold pars_of. rewrite get_info_upd. destruct (N.eqb m n); [destruct (get_info g m)|]; reflexivity. Qed.

Lemma rank_of_upd_keep g n f m : (forall i, rank (f i) = rank i) -> rank_of (upd_info g n f) m = rank_of g m.
Proof. intros H. rewrite rank_of_upd. unfold rank_of. destruct (N.eqb m n); [destruct (get_info g m); [apply H|]|]; reflexivity. Qed.
Lemma kids_of_upd_keep g n f m : (forall i, kids (f i) = kids i) -> kids_of (upd_info g n f) m = kids_of g m.
Proof. intros H. rewrite kids_of_upd. unfold kids_of. destruct (N.eqb m n); [destruct (get_info g m); [apply H|]|]; reflexivity. Qed.
Lemma pars_of_upd_keep g n f m : (forall i, pars (f i) = pars i) -> pars_of (upd_info g n f) m = pars_of g m.
Proof. intros H. rewrite pars_of_upd. unfold pars_of. destruct (N.eqb m n); [destruct (get_info g m); [apply H|]|]; reflexivity. Qed.
Lemma kids_of_upd_map g n f (h : list node -> list node) m :
  (forall i, kids (f i) = h (kids i)) -> h [] = [] ->
  kids_of (upd_info g n f) m = if N.eqb m n then h (kids_of g m) else kids_of g m.
Proof. intros H H0. rewrite kids_of_upd. unfold kids_of. destruct (get_info g m); [rewrite H|rewrite H0]; reflexivity. Qed.
Lemma pars_of_upd_map g n f (h : list node -> list node) m :
  (forall i, pars (f i) = h (pars i)) -> h [] = [] ->
  pars_of (upd_info g n f) m = if N.eqb m n then h (pars_of g m) else pars_of g m.
Proof. intros H H0. rewrite pars_of_upd. unfold pars_of. destruct (get_info g m); [rewrite H|rewrite H0]; reflexivity. Qed.

Lemma ids_upd g n f : map fst (infos (upd_info g n f)) = map fst (infos g).
Proof. unfold upd_info. cbn. apply map_fst_upd. Qed.
Lemma length_infos_upd g n f : length (infos (upd_info g n f)) = length (infos g).
Proof. unfold upd_info, upd_info_l. cbn. apply map_length. Qed.

Lemma live_true_iff g n : live g n = true <-> In n (map fst (infos g)).
Proof.
  unfold live, get_info. destruct (get_info_l (infos g) n) eqn:X.
  - split; [|reflexivity]. intros _. apply get_info_l_some_in in X. change n with (fst (n, n0)). apply in_map. exact X.
  - split; [discriminate|]. intros Y. apply get_info_l_none in X. contradiction.
Qed.

Lemma kids_of_dead g n : live g n = false -> kids_of g n = [].
Proof. unfold live, kids_of. destruct (get_info g n); [discriminate|reflexivity]. Qed.
Lemma pars_of_dead g n : live g n = false -> pars_of g n = [].
Proof. unfold live, pars_of. destruct (get_info g n); [discriminate|reflexivity]. Qed.
Lemma rank_of_dead g n : live g n = false -> rank_of g n = 0.
Proof. unfold live, rank_of. destruct (get_info g n); [discriminate|reflexivity]. Qed.

Lemma pair_eqb_eq a b : pair_eqb a b = true <-> a = b.
Proof.
  unfold pair_eqb. destruct a, b; cbn. rewrite andb_true_iff, !N.eqb_eq.
  split; [intros [A B]; subst; reflexivity|intros X; inversion X; split; reflexivity].
Qed.
Lemma pair_eqb_refl a : pair_eqb a a = true. Proof. apply pair_eqb_eq. reflexivity. Qed.
Lemma pair_eqb_neq a b : pair_eqb a b = false <-> a <> b.
Proof. rewrite <- pair_eqb_eq. destruct (pair_eqb a b); split; congruence. Qed.

Lemma get_edata_l_app (l1 l2 : list ((node * node) * ED)) k :
  get_edata_l (l1 ++ l2) k = match get_edata_l l1 k with Some e => Some e | None => get_edata_l l2 k end.
Proof. induction l1 as [|[k' e] tl IH]; cbn; [reflexivity|]. destruct (pair_eqb k' k); [reflexivity|exact IH]. Qed.

Lemma get_edata_l_remove_same (l : list ((node * node) * ED)) k : get_edata_l (remove_edata_l l k) k = None.
Proof.
  induction l as [|[k' e] tl IH]; cbn; [reflexivity|].
  destruct (pair_eqb k' k) eqn:X; cbn; [exact IH|]. rewrite X. exact IH.
Qed.
Lemma get_edata_l_remove_other (l : list ((node * node) * ED)) k k' :
  k <> k' -> get_edata_l (remove_edata_l l k) k' = get_edata_l l k'.
Proof.
  intros Hne. induction l as [|[k0 e] tl IH]; cbn; [reflexivity|].
  destruct (pair_eqb k0 k) eqn:X; cbn.
  - apply pair_eqb_eq in X. subst k0. destruct (pair_eqb k k') eqn:Y; [apply pair_eqb_eq in Y; congruence|exact IH].
  - destruct (pair_eqb k0 k'); [reflexivity|exact IH].
Qed.

Lemma get_edata_insert g s d e s' d' :
  get_edata (insert_edata g s d e) s' d' = if pair_eqb (s, d) (s', d') then Some e else get_edata g s' d'.
Proof.
  unfold get_edata, insert_edata, set_edata. cbn [edata]. rewrite get_edata_l_app.
  destruct (pair_eqb (s, d) (s', d')) eqn:X.
  - apply pair_eqb_eq in X. inversion X; subst. rewrite get_edata_l_remove_same. cbn. rewrite pair_eqb_refl. reflexivity.
  - apply pair_eqb_neq in X. rewrite get_edata_l_remove_other by exact X.
    destruct (get_edata_l (edata g) (s', d')); [reflexivity|]. cbn.
    destruct (pair_eqb (s, d) (s', d')) eqn:Y; [apply pair_eqb_eq in Y; congruence|reflexivity].
Qed.
Lemma get_edata_remove g s d s' d' :
  get_edata (remove_edata g s d) s' d' = if pair_eqb (s, d) (s', d') then None else get_edata g s' d'.
Proof.
  unfold get_edata, remove_edata, set_edata. cbn [edata].
  destruct (pair_eqb (s, d) (s', d')) eqn:X.
  - apply pair_eqb_eq in X. inversion X; subst. apply get_edata_l_remove_same.
  - apply pair_eqb_neq in X. apply get_edata_l_remove_other. exact X.
Qed.
Lemma get_edata_upd g n f s d : get_edata (upd_info g n f) s d = get_edata g s d.
Proof. reflexivity. Qed.

Lemma infos_insert_edata g s d e : infos (insert_edata g s d e) = infos g. Proof. reflexivity. Qed.
Lemma infos_remove_edata g s d : infos (remove_edata g s d) = infos g. Proof. reflexivity. Qed.
Lemma last_upd g n f : last (upd_info g n f) = last g. Proof. reflexivity. Qed.

End Lib.

Lemma removeN_app_single x l : ~ In x l -> removeN x (l ++ [x]) = l.
Proof.
  intros H. unfold removeN. rewrite filter_app. cbn. rewrite N.eqb_refl. cbn. rewrite app_nil_r.
  fold (removeN x l). apply removeN_notin. exact H.
Qed.

Lemma ssorted_app {A} (R : A -> A -> Prop) l1 l2 :
  StronglySorted R l1 -> StronglySorted R l2 -> (forall x y, In x l1 -> In y l2 -> R x y) -> StronglySorted R (l1 ++ l2).
Proof.
  induction l1 as [|b bl IH]; intros H1 H2 C; cbn; [exact H2|]. inversion H1 as [|? ? H1' Hb]; subst. constructor.
  - apply IH; [exact H1'|exact H2|]. intros x y X Y. apply C; [right; exact X|exact Y].
  - apply Forall_forall. intros z Z. apply in_app_or in Z. destruct Z as [Z|Z].
    + rewrite Forall_forall in Hb. apply Hb. exact Z.
    + apply C; [left; reflexivity|exact Z].
Qed.
Lemma ssorted_snoc {A} (R : A -> A -> Prop) l a :
  StronglySorted R l -> (forall z, In z l -> R z a) -> StronglySorted R (l ++ [a]).
Proof. intros Hs Hall. apply ssorted_app; [exact Hs|repeat constructor|]. intros x y X [<-|[]]. apply Hall. exact X. Qed.
Lemma ssorted_weaken {A} (R R' : A -> A -> Prop) l :
  StronglySorted R l -> (forall x y, In x l -> In y l -> R x y -> R' x y) -> StronglySorted R' l.
Proof.
  induction l as [|a tl IH]; intros H C; [constructor|]. inversion H as [|? ? H' Ha]; subst. constructor.
  - apply IH; [exact H'|]. intros x y X Y. apply C; right; assumption.
  - rewrite Forall_forall in *. intros z Z. apply C; [left; reflexivity|right; exact Z|apply Ha; exact Z].
Qed.

Section Sorting.
Variable key : node -> N.

Definition sortedk (l : list node) : Prop := StronglySorted (fun a b => key a <= key b) l.

Lemma insert_by_perm x l : Permutation (insert_by key x l) (x :: l).
Proof.
  induction l as [|y tl IH]; cbn; [reflexivity|].
  destruct (N.leb (key x) (key y)); [reflexivity|].
  rewrite IH. apply perm_swap.
Qed.

Lemma sort_by_perm l : Permutation (sort_by key l) l.
Proof.
  induction l as [|x tl IH]; cbn; [reflexivity|].
  unfold sort_by in *. cbn. rewrite insert_by_perm. apply perm_skip. exact IH.
Qed.

Lemma insert_by_sorted x l : sortedk l -> sortedk (insert_by key x l).
Proof.
  induction l as [|y tl IH]; intros H; cbn.
  - constructor; constructor.
  - destruct (N.leb (key x) (key y)) eqn:E.
    + apply N.leb_le in E. constructor; [exact H|].
      inversion H as [|? ? Hs Hall]; subst. constructor; [exact E|].
      eapply Forall_impl; [|exact Hall]. intros a Ha. cbn in Ha. lia.
    + apply N.leb_gt in E. inversion H as [|? ? Hs Hall]; subst. constructor; [apply IH; exact Hs|].
      assert (Hp := insert_by_perm x tl).
      apply Forall_forall. intros a Ha.
      apply (Permutation_in _ Hp) in Ha. destruct Ha as [Ha|Ha]; [subst; lia|].
      rewrite Forall_forall in Hall. apply Hall. exact Ha.
Qed.

Lemma sort_by_sorted l : sortedk (sort_by key l).
Proof.
  induction l as [|x tl IH]; cbn; [constructor|]. unfold sort_by in *. cbn. apply insert_by_sorted. exact IH.
Qed.

Lemma sorted_perm_unique l1 l2 :
  sortedk l1 -> sortedk l2 -> Permutation l1 l2 -> NoDup (map key l1) -> l1 = l2.
Proof.
  revert l2. induction l1 as [|a t1 IH]; intros l2 H1 H2 Hp Hnd.
  - apply Permutation_nil in Hp. subst. reflexivity.
  - destruct l2 as [|b t2]; [apply Permutation_sym, Permutation_nil in Hp; discriminate|].
    inversion H1 as [|? ? Hs1 Ha1]; subst. inversion H2 as [|? ? Hs2 Ha2]; subst.
    assert (Hab : a = b).
    { assert (Hin_a : In a (b :: t2)) by (eapply Permutation_in; [exact Hp|left; reflexivity]).
      assert (Hin_b : In b (a :: t1)) by (eapply Permutation_in; [apply Permutation_sym; exact Hp|left; reflexivity]).
      destruct Hin_a as [E|Hin_a]; [congruence|]. destruct Hin_b as [E|Hin_b]; [congruence|].
      rewrite Forall_forall in Ha1, Ha2. specialize (Ha1 b Hin_b). specialize (Ha2 a Hin_a). cbn in Ha1, Ha2.
      assert (Hk : key a = key b) by lia.
      exfalso. cbn in Hnd. inversion Hnd as [|? ? Hnin _]; subst. apply Hnin. rewrite Hk. apply in_map. exact Hin_b. }
    subst b. f_equal. apply IH; try assumption.
    + eapply Permutation_cons_inv. exact Hp.
    + cbn in Hnd. inversion Hnd; assumption.
Qed.

(* C16: the result of sorting does not depend on the order in which the elements arrive *)
Theorem sort_by_order_independent l1 l2 :
  Permutation l1 l2 -> NoDup (map key l1) -> sort_by key l1 = sort_by key l2.
Proof.
  intros Hp Hnd. apply sorted_perm_unique; try apply sort_by_sorted.
  - rewrite sort_by_perm. rewrite Hp. symmetry. apply sort_by_perm.
  - eapply Permutation_NoDup; [|exact Hnd]. apply Permutation_map. symmetry. apply sort_by_perm.
Qed.

Lemma sorted_rev_head_max l t tl :
  sortedk l -> rev l = t :: tl -> forall x, In x l -> key x <= key t.
Proof.
  intros Hs Hr x Hin.
  assert (Hl : l = rev tl ++ [t]).
  { rewrite <- (rev_involutive l), Hr. cbn. reflexivity. }
  subst l. clear Hr.
  induction (rev tl) as [|y ys IH]; cbn in *.
  - destruct Hin as [E|[]]; subst; lia.
  - inversion Hs as [|? ? Hs' Hall]; subst. destruct Hin as [E|Hin].
    + subst. rewrite Forall_forall in Hall. apply Hall. apply in_or_app. right. left. reflexivity.
    + apply IH; assumption.
Qed.

Lemma sorted_rev_desc l : sortedk l -> StronglySorted (fun a b => key b <= key a) (rev l).
Proof.
  induction l as [|a tl IH]; intros H; cbn; [constructor|].
  inversion H as [|? ? Hs Hall]; subst.
  apply ssorted_snoc; [apply IH; exact Hs|].
  intros z Hz. apply in_rev in Hz. rewrite Forall_forall in Hall. apply Hall. exact Hz.
Qed.

End Sorting.
