(* C17: the tracker stream of every top-down require and every bottom-up build is properly nested -- for all programs,
   checkers, worlds and fuel.  A Done outcome extends the stream by a balanced segment; an Abort outcome by a prefix of one.
   A read/write whose stamping failed leaves a start that is never closed (the code emits no end for it): such a dangling
   ReadStart/WriteStart counts as an atom.
   No predicate on worlds alone can say this (it would have to survive the emission of any end event); it is an invariant of
   the one traversal of the interpreters all the same (nest_base: InvE.Base), with the stack of open brackets as the ghost
   that InvE.Base moves where a bracket opens and closes. *)
From Coq Require Import List NArith ZArith Bool Lia.
From PieV Require Import Model.Dag Model.Build Proofs.Steps Proofs.Local2 Proofs.InvE.
Import ListNotations.
Open Scope N_scope.

Definition matching (s e : event) : bool :=
  match s, e with
  | EBuildStart, EBuildEnd => true
  | ERequireStart t c, ERequireEnd t' c' _ _ => N.eqb t t' && N.eqb c c'
  | EReadStart r c, EReadEnd r' c' _ => N.eqb r r' && N.eqb c c'
  | EWriteStart r c, EWriteEnd r' c' _ => N.eqb r r' && N.eqb c c'
  | ECheckTaskStart t c st, ECheckTaskEnd t' c' st' _ => N.eqb t t' && N.eqb c c' && Z.eqb st st'
  | ECheckResStart r c st, ECheckResEnd r' c' st' _ => N.eqb r r' && N.eqb c c' && Z.eqb st st'
  | EExecStart t, EExecEnd t' _ => N.eqb t t'
  | ESchedByTaskStart t, ESchedByTaskEnd t' => N.eqb t t'
  | ECheckReqTaskStart t c st, ECheckReqTaskEnd t' c' st' _ => N.eqb t t' && N.eqb c c' && Z.eqb st st'
  | ESchedByResStart r, ESchedByResEnd r' => N.eqb r r'
  | ECheckReadResStart t c st, ECheckReadResEnd t' c' st' _ => N.eqb t t' && N.eqb c c' && Z.eqb st st'
  | _, _ => false
  end.
Definition atom (e : event) : bool :=
  match e with ESchedTask _ | EReadStart _ _ | EWriteStart _ _ => true | _ => false end.

Inductive balanced : list event -> Prop :=
| bal_nil : balanced []
| bal_atom e : atom e = true -> balanced [e]
| bal_wrap s body e : matching s e = true -> balanced body -> balanced (s :: body ++ [e])
| bal_app a b : balanced a -> balanced b -> balanced (a ++ b).
Definition pbal (tr : list event) : Prop := exists rest, balanced (tr ++ rest).

Lemma balanced_pbal tr : balanced tr -> pbal tr.
Proof. intros H. exists []. rewrite app_nil_r. exact H. Qed.
Lemma pbal_app_l a b : balanced a -> pbal b -> pbal (a ++ b).
Proof. intros Ha [r Hr]. exists r. rewrite <- app_assoc. apply bal_app; assumption. Qed.
Lemma pbal_open s b : (exists e, matching s e = true) -> pbal b -> pbal (s :: b).
Proof. intros [e He] [r Hr]. exists (r ++ [e]). cbn. rewrite app_assoc. apply bal_wrap; assumption. Qed.

(* seg is chronological; streams are stored newest first *)
Definition ext (w w' : world) (seg : list event) : Prop := trace w' = rev seg ++ trace w.
Lemma ext_refl w : ext w w []. Proof. reflexivity. Qed.
Lemma ext_trans w1 w2 w3 a b : ext w1 w2 a -> ext w2 w3 b -> ext w1 w3 (a ++ b).
Proof. unfold ext. intros H1 H2. rewrite H2, H1, rev_app_distr, app_assoc. reflexivity. Qed.
Lemma ext_emit w e : ext w (emit w e) [e]. Proof. reflexivity. Qed.

Definition okD {A} (w : world) (m : outcome A) : Prop :=
  match m with
  | Done _ w' => exists seg, ext w w' seg /\ balanced seg
  | Abort _ w' => exists seg, ext w w' seg /\ pbal seg
  | OutOfFuel => True
  end.

Section T.
Variable RC : rcid -> rchecker.
Variable OC : ocid -> ochecker.
Variable P : task -> prog.

Lemma trace_queue_add w t : trace (queue_add w t) = trace w. Proof. unfold queue_add. destruct (memN _ _); reflexivity. Qed.

(* The ghost is the stack g of open brackets, innermost first: the segment emitted since w0 is  b0 s1 b1 ... sn bn  with
   g = [sn; ...; s1] and every bi balanced. *)
Fixpoint nest (g seg : list event) : Prop :=
  match g with
  | [] => balanced seg
  | s :: g' => exists a b, seg = a ++ s :: b /\ (exists e, matching s e = true) /\ nest g' a /\ balanced b
  end.
Lemma nest_bal g seg b : nest g seg -> balanced b -> nest g (seg ++ b).
Proof.
  destruct g as [|s g]; cbn [nest]; [apply bal_app|]. intros [a [b0 [-> [M [N B0]]]]] Hb. exists a, (b0 ++ b).
  rewrite <- app_assoc. repeat split; [exact M|exact N|apply bal_app; assumption].
Qed.
Lemma nest_close g seg s e : matching s e = true -> nest (s :: g) seg -> nest g (seg ++ [e]).
Proof.
  intros M [a [b [-> [_ [N B]]]]]. rewrite <- app_assoc. apply nest_bal; [exact N|]. apply (bal_wrap s b e); assumption.
Qed.
(* what is open can be closed, from the innermost bracket outwards *)
Lemma nest_pbal g : forall seg tl, nest g seg -> pbal tl -> pbal (seg ++ tl).
Proof.
  induction g as [|s g IH]; intros seg tl N T; [apply pbal_app_l; assumption|]. destruct N as [a [b [-> [M [N B]]]]].
  rewrite <- app_assoc. apply IH; [exact N|]. apply pbal_open; [exact M|apply pbal_app_l; assumption].
Qed.

Lemma brackets_matching s e : brackets s e -> matching s e = true.
Proof. destruct 1; cbn; rewrite ?N.eqb_refl, ?Z.eqb_refl; reflexivity. Qed.

Section Nest.
Variable w0 : world.                 (* the world in which the segment began *)
Definition Nest (g : list event) (w : world) : Prop := exists seg, ext w0 w seg /\ nest g seg.
Definition PB (w : world) : Prop := exists seg, ext w0 w seg /\ pbal seg.

Lemma Nest_ext g w w' b : ext w w' b -> balanced b -> Nest g w -> Nest g w'.
Proof. intros E B [seg [E0 Nn]]. exists (seg ++ b). split; [exact (ext_trans _ _ _ _ _ E0 E)|apply nest_bal; assumption]. Qed.
Lemma Nest_same g w w' : trace w' = trace w -> Nest g w -> Nest g w'.
Proof. intros T [seg [E Nn]]. exists seg. split; [unfold ext; rewrite T; exact E|exact Nn]. Qed.
Lemma Nest_open g w s : (exists e, matching s e = true) -> Nest g w -> Nest (s :: g) (emit w s).
Proof.
  intros M [seg [E Nn]]. exists (seg ++ [s]). split; [exact (ext_trans _ _ _ _ _ E (ext_emit w s))|].
  exists seg, []. repeat split; [exact M|exact Nn|constructor].
Qed.
Lemma Nest_close g w s e : matching s e = true -> Nest (s :: g) w -> Nest g (emit w e).
Proof.
  intros M [seg [E Nn]]. exists (seg ++ [e]). split; [exact (ext_trans _ _ _ _ _ E (ext_emit w e))|exact (nest_close g seg s e M Nn)].
Qed.
Lemma Nest_atom g w e : atom e = true -> Nest g w -> Nest g (emit w e).
Proof. intros A. exact (Nest_ext g w (emit w e) [e] (ext_emit w e) (bal_atom e A)). Qed.
Lemma Nest_abort g w : Nest g w -> PB w.
Proof.
  intros [seg [E Nn]]. exists seg. split; [exact E|]. rewrite <- (app_nil_r seg).
  apply (nest_pbal g seg []); [exact Nn|apply balanced_pbal; constructor].
Qed.

Notation okNest := (okG (list event) Nest none PB).
Lemma quiet_N {A} g w (m : outcome A) : quietO w m -> Nest g w -> okNest g m.
Proof. destruct m as [a w'|k w'|]; cbn; [intros [T _]; exact (Nest_same g w w' T)|intros [T _] H; right; exact (Nest_abort g _ (Nest_same g w w' T H))|trivial]. Qed.

(* a read or write: after the start event s the operation stops (s stays open for good and counts as an atom), or emits the
   matching end event and records the dependency *)
Lemma run_rw_N {Y} g (o : rwop Y) w : Nest g w -> okNest g (run_rw RC o w).
Proof.
  intros H. rewrite run_rw_form. unfold rw_form. cbv zeta.
  assert (T0 : trace (rw_before o w) = trace w) by (destruct o; [reflexivity|reflexivity|apply quiet_set_content]).
  assert (TA : forall a, trace (rw_after o a) = trace a) by (intros a; destruct o; [reflexivity|apply quiet_set_content|reflexivity]).
  destruct (cur (rw_before o w)) as [t|]; [|apply (Nest_same g w); [rewrite TA; exact T0|exact H]].
  apply (Nest_same g w (rw_before o w) T0) in H.
  assert (M : forall st, matching (rw_start o) (rw_end o st) = true) by (intros st; destruct o; cbn; rewrite !N.eqb_refl; reflexivity).
  assert (HO : Nest (rw_start o :: g) (rw_at o w)) by (apply (Nest_same _ (emit (rw_before o w) (rw_start o))); [apply quiet_goc|apply Nest_open; [exists (rw_end o 0%Z); apply M|exact H]]).
  assert (HA : Nest g (rw_at o w)) by (apply (Nest_same _ (emit (rw_before o w) (rw_start o))); [apply quiet_goc|apply Nest_atom; [destruct o; reflexivity|exact H]]).
  destruct (rw_blocked o (rw_at o w) t); [right; exact (Nest_abort g _ HA)|].
  destruct (rc_stamp _ _ _ _) as [st|e]; [|exact (Nest_same g _ _ (TA _) HA)].
  apply (quiet_N g (emit (rw_after o (rw_at o w)) (rw_end o st))); [|exact (Nest_close g _ _ _ (M st) (Nest_same _ _ _ (TA _) HO))].
  pose proof (quiet_add_dependency (emit (rw_after o (rw_at o w)) (rw_end o st)) (tn t) (rn (rw_res o)) (rw_dp o st)) as T.
  destruct (add_dependency _ _ _ _) as [[| |] w5]; exact T.
Qed.

Lemma Nest_sched g w s e x t : matching s e = true -> Nest (s :: g) w -> Nest g (queue_add (emit (reported x (emit w e)) (ESchedTask t)) t).
Proof.
  intros M H. apply (Nest_same g (emit (emit w e) (ESchedTask t))); [rewrite trace_queue_add; destruct x; reflexivity|].
  apply (Nest_ext g (emit w e) _ [ESchedTask t]); [reflexivity|apply bal_atom; reflexivity|exact (Nest_close g w s e M H)].
Qed.

Theorem nest_base : Base RC (list event) (fun g _ => g) (fun g s => s :: g) Nest (fun g w _ => Nest g w) none PB.
Proof.
  constructor.
  - exact Nest_abort.
  - intros g t w H. exact H.
  - intros g t w _ H. exact H.
  - intros g Y. apply run_rw_N.
  - intros g w t. apply quiet_N, quiet_reserve.
  - intros g w t c st _. apply quiet_N, quiet_update.
  - intros g w t. apply Nest_same, quiet_goc.
  - intros g w t. apply Nest_same. reflexivity.
  - intros g w s e Hb. apply Nest_open. exists e. exact (brackets_matching s e Hb).
  - intros g w s e Hb _. exact (Nest_close g w s e (brackets_matching s e Hb)).
  - intros g w t H. apply (Nest_open g (set_cur (reset_task w t) (Some t))); [exists (EExecEnd t 0%Z); apply N.eqb_refl|].
    revert H. apply Nest_same. reflexivity.
  - intros g w t o c H. apply (Nest_same g (emit w (EExecEnd t o))); [reflexivity|]. exact (Nest_close g w (EExecStart t) (EExecEnd t o) (N.eqb_refl t) H).
Qed.
Theorem nest_base_bu : BaseBu (list event) (fun g s => s :: g) Nest (fun g w _ => Nest g w).
Proof.
  constructor.
  - intros g w r. apply Nest_same, quiet_goc.
  - intros g w t c st x _. apply Nest_sched. exact (brackets_matching _ _ (br_check_read t c st x)).
  - intros g w t c st. apply (Nest_sched g w _ _ Consistent). exact (brackets_matching _ _ (br_check_req t c st true)).
  - intros g w t H _. revert H. apply Nest_same. reflexivity.
  - intros g w t H _ _. exact H.
Qed.
Theorem nest_base_td : BaseTd (list event) (fun g s => s :: g) Nest (fun g w _ => Nest g w).
Proof.
  constructor.
  - intros g w d c st _. exact (Nest_close g w _ _ (brackets_matching _ _ (br_check_task d c st true))).
  - intros g w r c st x _ _ H. apply (Nest_same g (emit w (ECheckResEnd r c st x))); [destruct x; reflexivity|].
    exact (Nest_close g w _ _ (brackets_matching _ _ (br_check_res r c st x)) H).
  - intros g w t H _. exact H.
Qed.

End Nest.

Lemma Nest_start w : Nest w [] w. Proof. exists []. split; [reflexivity|constructor]. Qed.
Lemma okNest_okD {A} w (m : outcome A) : okG (list event) (Nest w) none (PB w) [] m -> okD w m.
Proof. destruct m as [a w'|k w'|]; cbn; [intros H; exact H|intros [[]|H]; exact H|trivial]. Qed.

Theorem require_td_okD fuel w t c : okD w (require_td RC OC P fuel w t c).
Proof.
  apply okNest_okD. refine (require_with_g RC OC _ _ _ _ _ _ _ (nest_base w) _ _ (td_out RC OC P fuel) [] w t c (Nest_start w)).
  exact (make_consistent_td_g RC OC P _ _ _ _ _ _ _ (nest_base w) (nest_base_td w) fuel).
Qed.

Variable always : ocid.
Theorem session_require_okD fuel w t : okD w (session_require RC OC P always fuel w t).
Proof.
  apply okNest_okD, (session_require_g RC OC P _ _ _ _ _ _ _ (nest_base w) (nest_base_td w) always fuel [] w t); [|apply Nest_start].
  intros w1. apply Nest_same. reflexivity.
Qed.

Theorem session_bottom_up_okD fuel w ch : okD w (session_bottom_up RC OC P fuel w ch).
Proof.
  apply okNest_okD, (session_bottom_up_g RC OC P _ _ _ _ _ _ _ (nest_base w) (nest_base_bu w) fuel [] w ch).
  - intros w1. apply Nest_same. reflexivity.
  - apply (Nest_same w [] w); [reflexivity|apply Nest_start].
Qed.

End T.

(* non-vacuity: nested brackets, a dangling read start, an atom *)
Example balanced_witness :
  balanced [EBuildStart; ERequireStart 1 2; EExecStart 1; EReadStart 3 5; EReadStart 4 0; EReadEnd 4 0 7; ESchedTask 9;
            EExecEnd 1 8; ERequireEnd 1 2 0 8; EBuildEnd].
Proof.
  apply (bal_wrap EBuildStart [_; _; _; _; _; _; _; _] EBuildEnd); [reflexivity|].
  apply (bal_wrap (ERequireStart 1 2) [_; _; _; _; _; _] (ERequireEnd 1 2 0 8)); [reflexivity|].
  apply (bal_wrap (EExecStart 1) [_; _; _; _] (EExecEnd 1 8)); [reflexivity|].
  apply (bal_app [EReadStart 3 5] [_; _; _]); [apply bal_atom; reflexivity|].
  apply (bal_app [EReadStart 4 0; EReadEnd 4 0 7] [_]); [|apply bal_atom; reflexivity].
  apply (bal_wrap (EReadStart 4 0) [] (EReadEnd 4 0 7)); [reflexivity|constructor].
Qed.
