(* The execution-stack argument for top-down builds, for all programs, checkers, worlds and fuel.  The stack S is a ghost: the
   list of tasks whose make_task_consistent is in progress, innermost first.  A task on it is never entered again (C07: no
   re-entry, any cycle length); within a session every task is executed at most once, and only if it was not yet consistent
   (C02); a nested build leaves the recorded dependencies and outputs of all tasks on the stack untouched; no
   internal-invariant error ("BUG" panics of the code: ABug 1, 2, 3, 5) can occur, also not in builds that start from the store
   an aborted build left behind (C19). *)
From Coq Require Import List ZArith Bool Lia.
From PieV Require Import Model.Dag Model.Build Proofs.Local Proofs.DagLib Proofs.DagWF Proofs.DagPath Proofs.DagAddEdge 
 
  Proofs.StoreInv Proofs.Effects Proofs.Steps.
Import ListNotations.
Open Scope N_scope.

Definition edge (w : world) (a b : task) : Prop := In (tn b) (kids_of (gr w) (tn a)).
Fixpoint chain_ok (w : world) (S : list task) : Prop :=
  match S with
  | inner :: ((outer :: _) as tl) => edge w outer inner /\ chain_ok w tl
  | _ => True
  end.
Definition Chain (w : world) (S : list task) : Prop := NoDup S /\ chain_ok w S.
Definition entry_ok (w : world) (S : list task) (t : task) : Prop := match S with [] => True | top :: _ => edge w top t end.

Definition execs (seg : list event) : list task := flat_map (fun e => match e with EExecStart t => [t] | _ => [] end) seg.
Lemma execs_app a b : execs (a ++ b) = execs a ++ execs b. Proof. unfold execs. apply flat_map_app. Qed.

Definition cons_mono (w w' : world) : Prop := forall x, memN x (consistent w) = true -> memN x (consistent w') = true.

(* the second store invariant (beside StoreOK): a reserved require edge only leaves a task without output (executing,
   or aborted); a task marked consistent in the session has an output *)
Definition NoRes (w : world) : Prop := forall t d, get_edata (gr w) (tn t) d = Some DReserved -> get_task_output w t = None.
Definition ConsOut (w : world) : Prop := forall t, memN t (consistent w) = true -> get_task_output w t <> None.
Definition Inv2 (w : world) : Prop := NoRes w /\ ConsOut w.
Definition NoResAt (w : world) (t : task) : Prop := forall d, get_edata (gr w) (tn t) d <> Some DReserved.
(* aborts that exist for a user-level reason (task panic, cycle, hidden dependency, overlapping write) *)
Definition user_abort (k : akind) : Prop := match k with ABug _ => False | _ => True end.

(* what a (sub)computation did, relative to the stack S (recorded dependencies and outputs untouched), to the tasks G whose
   own dependency list may grow (the executing task, while its body runs) and to pend, the executed tasks that are not yet
   marked consistent at the end (the task whose execution just finished, until make_task_consistent marks it).
   po_keep: the computation marks no task of S or G (a caller concludes that the task it holds there is still unmarked);
   po_newcons: whatever it marks it has executed, or reused with the output it had; po_pendex: a pending task was executed
   or had an output, which is what po_newcons needs once pend is marked (post_mark). *)
Record Post (S G pend : list task) (w w' : world) (seg : list event) : Prop := mkPost {
  po_ok : StoreOK w';
  po_frame : forall s, In s S -> kids_of (gr w') (tn s) = kids_of (gr w) (tn s);
  po_grow : forall g x, In g G -> In x (kids_of (gr w) (tn g)) -> In x (kids_of (gr w') (tn g));
  po_live : forall m, live (gr w) m = true -> live (gr w') m = true;
  po_seg : trace w' = rev seg ++ trace w;
  po_nodup : NoDup (execs seg);
  po_fresh : forall x, In x (execs seg) -> ~ In x S /\ ~ In x G /\ memN x (consistent w) = false;
  po_mono : cons_mono w w';
  po_cons : forall x, In x (execs seg) -> memN x (consistent w') = true \/ In x pend;
  po_keep : forall s, In s S \/ In s G -> memN s (consistent w') = true -> memN s (consistent w) = true;
  po_eframe : forall s d, In s S -> get_edata (gr w') (tn s) d = get_edata (gr w) (tn s) d;
  po_oframe : forall s, In s S \/ In s G -> get_task_output w' s = get_task_output w s;
  po_inv : Inv2 w -> Inv2 w';
  po_others : forall m, ~ In m (execs seg) -> ~ In m G ->
    kids_of (gr w') (tn m) = kids_of (gr w) (tn m) /\
    (forall d, get_edata (gr w') (tn m) d = get_edata (gr w) (tn m) d) /\
    get_task_output w' m = get_task_output w m;
  po_newcons : forall x, memN x (consistent w') = true ->
    memN x (consistent w) = true \/ In x (execs seg) \/ get_task_output w x <> None;
  po_pendex : forall x, In x pend -> In x (execs seg) \/ get_task_output w x <> None
}.

Lemma chain_path w S s : chain_ok w S -> In s S -> forall top, hd_error S = Some top -> s = top \/ path (gr w) (tn s) (tn top).
Proof.
  induction S as [|a tl IH]; intros C Hs top Ht; [destruct Hs|]. cbn in Ht. inversion Ht; subst a.
  destruct Hs as [<-|Hs]; [left; reflexivity|]. right.
  destruct tl as [|b tl']; [destruct Hs|]. destruct C as [E C'].
  destruct (IH C' Hs b eq_refl) as [->|Pth]; [apply path1; exact E|eapply path_snoc; eassumption].
Qed.

Lemma entry_not_in w S t : WF (gr w) -> Chain w S -> entry_ok w S t -> ~ In t S.
Proof.
  intros W [_ C] E Hin. destruct S as [|top tl]; [destruct Hin|]. cbn in E.
  destruct (chain_path w (top :: tl) t C Hin top eq_refl) as [->|Pth].
  - eapply wf_noloop; eassumption.
  - eapply WF_acyclic; [exact W|]. eapply path_snoc; eassumption.
Qed.

Lemma chain_frame w w' S : chain_ok w S -> (forall s, In s S -> kids_of (gr w') (tn s) = kids_of (gr w) (tn s)) -> chain_ok w' S.
Proof.
  induction S as [|a tl IH]; intros C F; [exact I|]. destruct tl as [|b tl']; [exact I|]. destruct C as [E C']. split.
  - unfold edge in *. rewrite F by (right; left; reflexivity). exact E.
  - apply IH; [exact C'|]. intros s Hs. apply F. right. exact Hs.
Qed.
Lemma chain_grow w w' S g : chain_ok w (g :: S) ->
  (forall s, In s S -> kids_of (gr w') (tn s) = kids_of (gr w) (tn s)) -> chain_ok w' (g :: S).
Proof.
  intros C F. destruct S as [|b tl]; [exact I|]. destruct C as [E C']. split.
  - unfold edge in *. rewrite F by (left; reflexivity). exact E.
  - apply (chain_frame w w'); assumption.
Qed.

Lemma post_unmarked S G pend w w' seg s : Post S G pend w w' seg -> In s S \/ In s G ->
  memN s (consistent w) = false -> memN s (consistent w') = false.
Proof.
  intros P1 Hs Hn. destruct (memN s (consistent w')) eqn:Z; [|reflexivity]. rewrite (po_keep _ _ _ _ _ _ P1 s Hs Z) in Hn. discriminate Hn.
Qed.

Lemma post_frame S G w w' seg :
  StoreOK w' ->
  (forall m, (exists g, In g G /\ ~ In g S /\ m = tn g) \/
             (kids_of (gr w') m = kids_of (gr w) m /\ forall d, get_edata (gr w') m d = get_edata (gr w) m d)) ->
  (forall g x, In g G -> In x (kids_of (gr w) (tn g)) -> In x (kids_of (gr w') (tn g))) ->
  (forall m, live (gr w) m = true -> live (gr w') m = true) ->
  trace w' = rev seg ++ trace w -> execs seg = [] -> consistent w' = consistent w -> outs w' = outs w ->
  (Inv2 w -> Inv2 w') -> Post S G [] w w' seg.
Proof.
  intros H F Gr L T X M O Iv.
  assert (FS : forall s, In s S -> kids_of (gr w') (tn s) = kids_of (gr w) (tn s) /\ forall d, get_edata (gr w') (tn s) d = get_edata (gr w) (tn s) d).
  { intros s Hs. destruct (F (tn s)) as [[g [_ [Ng E]]]|Y]; [|exact Y]. apply tn_inj in E. subst g. contradiction. }
  constructor.
  - exact H.
  - intros s Hs. apply (FS s Hs).
  - exact Gr.
  - exact L.
  - exact T.
  - rewrite X. constructor.
  - rewrite X. intros x [].
  - intros x Y. rewrite M. exact Y.
  - rewrite X. intros x [].
  - intros s _ Y. rewrite <- M. exact Y.
  - intros s d Hs. apply (FS s Hs).
  - intros s _. unfold get_task_output. rewrite O. reflexivity.
  - exact Iv.
  - intros m _ Hm. assert (Y : kids_of (gr w') (tn m) = kids_of (gr w) (tn m) /\ forall d, get_edata (gr w') (tn m) d = get_edata (gr w) (tn m) d).
    { destruct (F (tn m)) as [[g [Ig [_ E]]]|Y]; [|exact Y]. apply tn_inj in E. subst g. contradiction. }
    split; [apply Y|]. split; [apply Y|]. unfold get_task_output. rewrite O. reflexivity.
  - intros x Y. left. rewrite <- M. exact Y.
  - intros x [].
Qed.

Lemma post_quiet S G w w' :
  StoreOK w' -> (forall m, kids_of (gr w') m = kids_of (gr w) m) -> (forall m, live (gr w) m = true -> live (gr w') m = true) ->
  trace w' = trace w -> consistent w' = consistent w -> (forall u v, get_edata (gr w') u v = get_edata (gr w) u v) -> outs w' = outs w ->
  Post S G [] w w' [].
Proof.
  intros H K L T M E O. apply post_frame; [exact H|intros m; right; split; [apply K|intros d; apply E]| |exact L|exact T|reflexivity|exact M|exact O|].
  - intros g x _ Y. rewrite K. exact Y.
  - intros [N C]. split.
    + intros t d Y. rewrite E in Y. unfold get_task_output. rewrite O. apply (N t d Y).
    + intros t Y. rewrite M in Y. unfold get_task_output. rewrite O. apply (C t Y).
Qed.
Lemma post_refl S G w : StoreOK w -> Post S G [] w w [].
Proof. intros H. apply post_quiet; tauto. Qed.

Record PostA (S G : list task) (w w' : world) (seg : list event) : Prop := mkPostA {
  pa_ok : StoreOK w';
  pa_seg : trace w' = rev seg ++ trace w;
  pa_nodup : NoDup (execs seg);
  pa_fresh : forall x, In x (execs seg) -> ~ In x S /\ ~ In x G /\ memN x (consistent w) = false;
  pa_inv : Inv2 w -> Inv2 w'
}.
Lemma post_to_A S G pend w w' seg : Post S G pend w w' seg -> PostA S G w w' seg.
Proof. intros [A1 A2 A3 A4 A5 A6 A7 A8 A9 A10 A11 A12 A13 A14 A15 A16]. constructor; assumption. Qed.
(* the tasks the first part leaves pending (executed, not yet marked: the task whose body is running) are among those whose
   lists may grow in the second part *)
Lemma postA_seq_open S G p1 w w1 w2 a b : Post S G p1 w w1 a -> PostA S (p1 ++ G) w1 w2 b -> PostA S G w w2 (a ++ b).
Proof.
  intros [A1 A2 A3 A4 A5 A6 A7 A8 A9 A10 A11 A12 A13 A14 A15 A16] [B1 B5 B6 B7 B13]. constructor.
  - exact B1.
  - rewrite B5, A5, rev_app_distr, app_assoc. reflexivity.
  - rewrite execs_app. apply NoDup_app_intro_t; try assumption.
    intros x X Y. destruct (B7 x Y) as [_ [NG Z']]. destruct (A9 x X) as [Z|Z]; [rewrite Z in Z'; discriminate Z'|].
    apply NG. apply in_or_app. left. exact Z.
  - intros x X. rewrite execs_app in X. apply in_app_or in X. destruct X as [X|X]; [apply A7; exact X|].
    destruct (B7 x X) as [P1 [P2 P3]]. split; [exact P1|]. split; [intros Y; apply P2; apply in_or_app; right; exact Y|].
    destruct (memN x (consistent w)) eqn:Z; [|reflexivity]. apply A8 in Z. rewrite Z in P3. discriminate P3.
  - intros X. apply B13, A13. exact X.
Qed.
Lemma postA_seq S G w w1 w2 a b : Post S G [] w w1 a -> PostA S G w1 w2 b -> PostA S G w w2 (a ++ b).
Proof. exact (postA_seq_open S G [] w w1 w2 a b). Qed.

Lemma post_seq_open S G p1 p2 w w1 w2 a b :
  Post S G p1 w w1 a -> (forall x, In x p1 -> In x (execs a)) -> Post S (p1 ++ G) p2 w1 w2 b -> Post S G (p1 ++ p2) w w2 (a ++ b).
Proof.
  intros A HP B. destruct (postA_seq_open S G p1 w w1 w2 a b A (post_to_A _ _ _ _ _ _ B)) as [C1 C5 C6 C7 C13].
  destruct A as [A1 A2 A3 A4 A5 A6 A7 A8 A9 A10 A11 A12 A13 A14 A15 A16], B as [B1 B2 B3 B4 B5 B6 B7 B8 B9 B10 B11 B12 B13 B14 B15 B16].
  assert (SG : forall s, In s S \/ In s G -> In s S \/ In s (p1 ++ G)).
  { intros s [Hs|Hs]; [left; exact Hs|right; apply in_or_app; right; exact Hs]. }
  assert (OUT : forall x, get_task_output w1 x <> None -> In x (execs (a ++ b)) \/ get_task_output w x <> None).
  { intros x Y. rewrite execs_app. destruct (in_dec N.eq_dec x (execs a)) as [I|NI]; [left; apply in_or_app; left; exact I|right].
    destruct (in_dec N.eq_dec x G) as [IG|NG]; [rewrite <- (A12 x (or_intror IG)); exact Y|].
    destruct (A14 x NI NG) as [_ [_ O]]. rewrite <- O. exact Y. }
  constructor.
  - exact C1.
  - intros s Hs. rewrite B2, A2 by exact Hs. reflexivity.
  - intros g x Hg X. apply B3; [apply in_or_app; right; exact Hg|]. apply A3; assumption.
  - intros m L. apply B4, A4. exact L.
  - exact C5.
  - exact C6.
  - exact C7.
  - intros x X. apply B8, A8. exact X.
  - intros x X. rewrite execs_app in X. apply in_app_or in X. destruct X as [X|X].
    + destruct (A9 x X) as [Z|Z]; [left; apply B8; exact Z|right; apply in_or_app; left; exact Z].
    + destruct (B9 x X) as [Z|Z]; [left; exact Z|right; apply in_or_app; right; exact Z].
  - intros s Hs X. apply A10; [exact Hs|]. apply B10; [apply SG; exact Hs|exact X].
  - intros s d Hs. rewrite B11, A11 by exact Hs. reflexivity.
  - intros s Hs. rewrite B12, A12; [reflexivity|exact Hs|apply SG; exact Hs].
  - exact C13.
  - intros m Hm Hg. rewrite execs_app in Hm.
    assert (Ha : ~ In m (execs a)) by (intros X; apply Hm, in_or_app; left; exact X).
    destruct (A14 m Ha Hg) as [P1 [P2 P3]].
    destruct (B14 m (fun X => Hm (in_or_app _ _ _ (or_intror X)))) as [Q1 [Q2 Q3]].
    { intros Y. apply in_app_or in Y. destruct Y as [Y|Y]; [exact (Ha (HP m Y))|exact (Hg Y)]. }
    split; [rewrite Q1, P1; reflexivity|]. split; [intros d; rewrite Q2, P2; reflexivity|rewrite Q3, P3; reflexivity].
  - intros x X. destruct (B15 x X) as [Y|[Y|Y]]; [|right; left; rewrite execs_app; apply in_or_app; right; exact Y|right; apply OUT; exact Y].
    destruct (A15 x Y) as [Z|[Z|Z]]; [left; exact Z|right; left; rewrite execs_app; apply in_or_app; left; exact Z|right; right; exact Z].
  - intros x X. apply in_app_or in X. destruct X as [X|X]; [left; rewrite execs_app; apply in_or_app; left; apply HP; exact X|].
    destruct (B16 x X) as [Y|Y]; [left; rewrite execs_app; apply in_or_app; right; exact Y|apply OUT; exact Y].
Qed.
Lemma post_seq S G pend w w1 w2 a b :
  Post S G [] w w1 a -> Post S G pend w1 w2 b -> Post S G pend w w2 (a ++ b).
Proof. intros A B. apply (post_seq_open S G [] pend w w1 w2 a b A); [intros x []|exact B]. Qed.

Definition okP {A} (S G pend : list task) (w : world) (m : outcome A) (extra : A -> world -> Prop) : Prop :=
  match m with
  | Done a w' => (exists seg, Post S G pend w w' seg) /\ extra a w'
  | Abort k w' => k = ABug 4 \/ (user_abort k /\ exists seg, PostA S G w w' seg)
  | OutOfFuel => True
  end.

(* an operation of the executing task t that starts no nested build: only t's dependency list may grow, nothing is executed *)
Record Leaf (t : task) (w w' : world) : Prop := mkLeaf {
  lf_ok : StoreOK w';
  lf_grows : grows_at (gr w) (gr w') (tn t);
  lf_seg : exists seg, trace w' = rev seg ++ trace w /\ execs seg = [];
  lf_cons : consistent w' = consistent w;
  lf_cur : cur w' = cur w;
  lf_eother : forall m d, m <> tn t -> get_edata (gr w') m d = get_edata (gr w) m d;
  lf_outs : outs w' = outs w
}.

Lemma leaf_refl t w : StoreOK w -> Leaf t w w.
Proof. intros H. constructor; [exact H|apply grows_refl|exists []; split; reflexivity|reflexivity|reflexivity|reflexivity|reflexivity]. Qed.
Lemma leaf_trans t w1 w2 w3 : Leaf t w1 w2 -> Leaf t w2 w3 -> Leaf t w1 w3.
Proof.
  intros [A1 A2 [sa [A3 A3']] A4 A5 A6 A7] [B1 B2 [sb [B3 B3']] B4 B5 B6 B7]. constructor.
  - exact B1. - eapply grows_trans; eassumption.
  - exists (sa ++ sb). split; [rewrite B3, A3, rev_app_distr, app_assoc; reflexivity|rewrite execs_app, A3', B3'; reflexivity].
  - congruence. - congruence.
  - intros m d Hm. rewrite B6, A6 by exact Hm. reflexivity.
  - congruence.
Qed.
Definition noexec (e : event) : Prop := match e with EExecStart _ => False | _ => True end.
Lemma leaf_emit t w e : StoreOK w -> noexec e -> Leaf t w (emit w e).
Proof.
  intros H N. constructor; [exact H|apply grows_refl| |reflexivity|reflexivity|reflexivity|reflexivity].
  exists [e]. split; [reflexivity|]. destruct e; try reflexivity. destruct N.
Qed.
Lemma leaf_goc t w n : StoreOK w -> Leaf t w (if live (gr w) n then w else set_gr w (add_node_at (gr w) n)).
Proof.
  intros H. destruct (live (gr w) n) eqn:L; [apply leaf_refl; exact H|].
  constructor; [apply GOK_add_node; assumption|apply same_grows, add_node_same|exists []; split; reflexivity|reflexivity..].
Qed.
Lemma leaf_goc_res t w r : StoreOK w -> Leaf t w (get_or_create_resource_node w r).
Proof. exact (leaf_goc t w (rn r)). Qed.
Lemma leaf_goc_task t w x : StoreOK w -> Leaf t w (get_or_create_task_node w x).
Proof. exact (leaf_goc t w (tn x)). Qed.
Lemma leaf_set_content t w r v : StoreOK w -> Leaf t w (set_content w r v).
Proof. intros H. destruct v; (constructor; [exact H|apply grows_refl|exists []; split; reflexivity|reflexivity|reflexivity|reflexivity|reflexivity]). Qed.

Lemma leaf_require_start t w x c : StoreOK w -> Leaf t w (at_require w x c).
Proof. intros H. eapply leaf_trans; [apply (leaf_emit t w (ERequireStart x c) H Logic.I)|apply leaf_goc_task; exact H]. Qed.

Lemma add_dependency_edata w s d dp :
  WF (gr w) ->
  match add_dependency w s d dp with
  | (AddBug, _) => True
  | (_, w') => forall m v, get_edata (gr w') m v = get_edata (gr w) m v \/
                           (m = s /\ v = d /\ get_edata (gr w) m v = None /\ get_edata (gr w') m v = Some dp)
  end.
Proof.
  intros W. pose proof (add_dependency_view w s d dp W) as V. destruct (add_dependency w s d dp) as [ar w'].
  assert (X : forall m v, get_edata (gr w') m v = get_edata (gr w) m v \/
                          (m = s /\ v = d /\ get_edata (gr w) m v = None /\ get_edata (gr w') m v = Some dp)).
  { destruct V as [[-> _]|[_ [NK [_ [_ VE]]]]]; intros m v; [left; reflexivity|]. rewrite VE.
    destruct (pair_eqb (s, d) (m, v)) eqn:Z; [|left; reflexivity]. apply pair_eqb_eq in Z. inversion Z; subst. right. repeat split.
    destruct (get_edata (gr w) m v) eqn:Y; [|reflexivity]. exfalso. apply NK. apply (wf_edata _ W). congruence. }
  destruct ar; [exact X|exact X|exact I].
Qed.

Lemma leaf_add_dependency t w d dp :
  StoreOK w -> dep_target_ok d dp ->
  (is_write (Some dp) = true -> forall r, d = rn r -> writers (gr w) r = []) ->
  match add_dependency w (tn t) d dp with
  | (AddBug, _) => True
  | (_, w') => Leaf t w w'
  end.
Proof.
  intros H Hd Hw. pose proof (add_dependency_ok w (tn t) d dp H (tn_even t) Hd Hw) as A.
  pose proof (add_dependency_grows w (tn t) d dp (proj1 H)) as G.
  pose proof (add_dependency_edata w (tn t) d dp (proj1 H)) as ED.
  destruct (add_dependency_gr w (tn t) d dp) as [g Eg].
  destruct (add_dependency w (tn t) d dp) as [[| |] w']; cbn [snd] in *; try exact I; subst w';
  (constructor; [exact A|exact G|exists []; split; reflexivity|reflexivity|reflexivity| |reflexivity]);
  intros m v Hm; (destruct (ED m v) as [X|[X _]]; [exact X|congruence]).
Qed.

Lemma add_dependency_edge w s d dp w' :
  WF (gr w) -> add_dependency w s d dp = (AddOk, w') -> In d (kids_of (gr w') s).
Proof.
  intros W E. pose proof (add_dependency_view w s d dp W) as V. rewrite E in V.
  destruct V as [[-> X]|[_ [_ [_ [VK _]]]]]; [exact (X eq_refl)|]. rewrite VK, N.eqb_refl. apply in_or_app. right. left. reflexivity.
Qed.

Lemma leaf_inv t w w' : Leaf t w w' -> get_task_output w t = None -> Inv2 w -> Inv2 w'.
Proof.
  intros [A1 A2 A3 A4 A5 A6 A7] Ho [N C]. split.
  - intros t' d X. unfold get_task_output. rewrite A7. destruct (N.eq_dec t' t) as [->|Hne]; [exact Ho|].
    rewrite A6 in X by (intros E; apply tn_inj in E; contradiction). apply (N t' d X).
  - intros t' X. rewrite A4 in X. unfold get_task_output. rewrite A7. apply (C t' X).
Qed.
Lemma leaf_out t w w' x : Leaf t w w' -> get_task_output w' x = get_task_output w x.
Proof. intros L. unfold get_task_output. rewrite (lf_outs _ _ _ L). reflexivity. Qed.

Definition leafO {A} (t : task) (w : world) (m : outcome A) : Prop :=
  match m with Done _ w' => Leaf t w w' | Abort k w' => k = ABug 4 \/ (user_abort k /\ Leaf t w w') | OutOfFuel => True end.
Definition noresO {A} (t : task) (m : outcome A) : Prop :=
  match m with Done _ w' => NoResAt w' t | Abort k w' => k = ABug 4 \/ NoResAt w' t | OutOfFuel => True end.

Lemma nores_add t w d dp : WF (gr w) -> dp <> DReserved -> NoResAt w t ->
  match add_dependency w (tn t) d dp with (AddBug, _) => True | (_, w') => NoResAt w' t end.
Proof.
  intros W Hdp Hn. pose proof (add_dependency_edata w (tn t) d dp W) as ED.
  destruct (add_dependency w (tn t) d dp) as [[| |] w']; try exact I;
  (intros v X; destruct (ED (tn t) v) as [Y|[_ [_ [_ Y]]]]; [rewrite Y in X; apply (Hn v X)|rewrite Y in X; inversion X; congruence]).
Qed.
Lemma nores_same t w w' : (forall u v, get_edata (gr w') u v = get_edata (gr w) u v) -> NoResAt w t -> NoResAt w' t.
Proof. intros E Hn d. rewrite E. apply Hn. Qed.
Lemma edata_goc_res w r u v : get_edata (gr (get_or_create_resource_node w r)) u v = get_edata (gr w) u v.
Proof. unfold get_or_create_resource_node. destruct (live _ _); reflexivity. Qed.
Lemma edata_goc_task w r u v : get_edata (gr (get_or_create_task_node w r)) u v = get_edata (gr w) u v.
Proof. unfold get_or_create_task_node. destruct (live _ _); reflexivity. Qed.
Lemma edata_set_content w r c u v : get_edata (gr (set_content w r c)) u v = get_edata (gr w) u v.
Proof. destruct c; reflexivity. Qed.

Lemma lstep_leaf t w w' : StoreOK w -> lstep w w' -> cur w = Some t -> Leaf t w w' /\ (NoResAt w t -> NoResAt w' t).
Proof.
  intros H S Hc. destruct S as [w e He|w r|w r v|w t' r dp ar w' Hc' [c [st Hdp]] Hw E NB].
  - split; [|trivial]. apply leaf_emit; [exact H|]. destruct e; try discriminate; exact I.
  - split; [apply leaf_goc_res; exact H|]. apply nores_same. intros u v. apply edata_goc_res.
  - split; [apply leaf_set_content; exact H|]. apply nores_same. intros u x. apply edata_set_content.
  - assert (t' = t) by congruence. subst t'.
    assert (Hd : dep_target_ok (rn r) dp /\ dp <> DReserved) by (destruct Hdp; subst dp; split; [reflexivity|discriminate|reflexivity|discriminate]).
    assert (HW : is_write (Some dp) = true -> forall r0, rn r = rn r0 -> writers (gr w) r0 = []).
    { intros X r0 Er. apply rn_inj in Er. subst r0. apply writers_nil_of_none. apply Hw. exact X. }
    pose proof (leaf_add_dependency t w (rn r) dp H (proj1 Hd) HW) as A.
    split; [|intros Hn; pose proof (nores_add t w (rn r) dp (proj1 H) (proj2 Hd) Hn) as B]; rewrite E in *;
      (destruct ar; [assumption|assumption|contradiction NB; reflexivity]).
Qed.

Lemma rw_chain_leaf {A} t w (m : outcome A) : StoreOK w -> cur w = Some t -> rw_chain w m ->
  leafO t w m /\ (NoResAt w t -> noresO t m).
Proof.
  intros H Hc C.
  assert (X : forall w', chain lstep w w' -> Leaf t w w' /\ (NoResAt w t -> NoResAt w' t)).
  { intros w' Cw. apply (chain_rel lstep (fun w => StoreOK w /\ cur w = Some t) (fun a b => Leaf t a b /\ (NoResAt a t -> NoResAt b t))) in Cw;
      [apply Cw|intros a [Ha _]; split; [apply leaf_refl; exact Ha|trivial]| | |split; assumption].
    - intros a b c [L1 N1] [L2 N2]. split; [eapply leaf_trans; eassumption|auto].
    - intros a b [Ha Ca] S. destruct (lstep_leaf t a b Ha S Ca) as [Lf Nf]. split; [split; assumption|].
      split; [apply Lf|rewrite (lf_cur _ _ _ Lf); exact Ca]. }
  destruct m as [x w'|k w'|]; cbn in *; [apply X; exact C| |split; trivial].
  destruct C as [[-> _]|[Hk C]]; [split; [left; reflexivity|left; reflexivity]|]. destruct (X w' C) as [Lf Nf].
  split; [right; split; [destruct Hk; subst k; exact I|exact Lf]|intros Hn; right; apply Nf; exact Hn].
Qed.

Lemma leaf_post S t w w' : Leaf t w w' -> ~ In t S -> get_task_output w t = None -> exists seg, Post S [t] [] w w' seg.
Proof.
  intros L Ht Ho. pose proof (leaf_inv t w w' L Ho) as LI.
  destruct L as [A1 [G1 [G2 G3]] [seg [A3 A3']] A4 A5 A6 A7]. exists seg.
  apply post_frame; [exact A1| |intros g x [<-|[]] X; apply G2; exact X|exact G3|exact A3|exact A3'|exact A4|exact A7|exact LI].
  intros m. destruct (N.eq_dec m (tn t)) as [->|Hne]; [left; exists t; split; [left; reflexivity|split; [exact Ht|reflexivity]]|right].
  split; [apply G1; exact Hne|intros d; apply A6; exact Hne].
Qed.
Lemma leaf_postA S t w w' : Leaf t w w' -> get_task_output w t = None -> exists seg, PostA S [t] w w' seg.
Proof.
  intros L Ho. pose proof (leaf_inv t w w' L Ho) as LI.
  destruct L as [A1 _ [seg [A3 A3']] _ _ _ _]. exists seg.
  constructor; [exact A1|exact A3|rewrite A3'; constructor|rewrite A3'; intros x []|exact LI].
Qed.

Lemma post_weaken S S' G' pend w w' seg : (forall s, In s S' \/ In s G' -> In s S) ->
  Post S [] pend w w' seg -> Post S' G' pend w w' seg.
Proof.
  intros HS [A1 A2 A3 A4 A5 A6 A7 A8 A9 A10 A11 A12 A13 A14 A15 A16]. constructor; try assumption.
  - intros s Hs. apply A2, HS. left. exact Hs.
  - intros g x Hg X. rewrite A2 by (apply HS; right; exact Hg). exact X.
  - intros x X. destruct (A7 x X) as [P1 [_ P3]]. split; [intros Y; apply P1, HS; left; exact Y|].
    split; [intros Y; apply P1, HS; right; exact Y|exact P3].
  - intros s Hs. apply A10. left. apply HS, Hs.
  - intros s d Hs. apply A11, HS. left. exact Hs.
  - intros s Hs. apply A12. left. apply HS, Hs.
  - intros m X _. apply A14; [exact X|intros []].
Qed.
Lemma postA_weaken S S' G' w w' seg : (forall s, In s S' \/ In s G' -> In s S) -> PostA S [] w w' seg -> PostA S' G' w w' seg.
Proof.
  intros HS [A1 A5 A6 A7 A13]. constructor; try assumption.
  intros x X. destruct (A7 x X) as [P1 [_ P3]]. split; [intros Y; apply P1, HS; left; exact Y|].
  split; [intros Y; apply P1, HS; right; exact Y|exact P3].
Qed.
Lemma shift_in S (t s : task) : In s S \/ In s [t] -> In s (t :: S).
Proof. intros [Hs|[<-|[]]]; [right; exact Hs|left; reflexivity]. Qed.
Lemma drop_in S (t s : task) : In s S \/ In s [] -> In s (t :: S).
Proof. intros [Hs|[]]. right. exact Hs. Qed.
Lemma post_shift S t pend w w' seg : Post (t :: S) [] pend w w' seg -> Post S [t] pend w w' seg.
Proof. apply post_weaken, shift_in. Qed.
Lemma post_drop S t pend w w' seg : Post (t :: S) [] pend w w' seg -> Post S [] pend w w' seg.
Proof. apply post_weaken, drop_in. Qed.
Lemma postA_shift S t w w' seg : PostA (t :: S) [] w w' seg -> PostA S [t] w w' seg.
Proof. apply postA_weaken, shift_in. Qed.
Lemma postA_drop S t w w' seg : PostA (t :: S) [] w w' seg -> PostA S [] w w' seg.
Proof. apply postA_weaken, drop_in. Qed.

Lemma post_emit S G w e : StoreOK w -> noexec e -> Post S G [] w (emit w e) [e].
Proof.
  intros H N. apply post_frame; [exact H|intros m; right; split; reflexivity|intros g x _ X; exact X|intros m X; exact X|reflexivity| |reflexivity|reflexivity|intros X; exact X].
  destruct e; try reflexivity; destruct N.
Qed.
Lemma post_push_err S G w e : StoreOK w -> Post S G [] w (push_err w e) [].
Proof. intros H. apply post_quiet; tauto. Qed.

Lemma post_mark S G t w w' seg : Post S G [t] w w' seg -> ~ In t S -> ~ In t G -> get_task_output w' t <> None ->
  Post S G [] w (mark_consistent w' t) seg.
Proof.
  intros [A1 A2 A3 A4 A5 A6 A7 A8 A9 A10 A11 A12 A13 A14 A15 A16] HS HG Ho. constructor; try assumption.
  - intros x X. unfold mark_consistent. cbn [consistent set_consistent]. rewrite memN_cons, (A8 x X). apply orb_true_r.
  - intros x X. left. unfold mark_consistent. cbn [consistent set_consistent]. rewrite memN_cons.
    destruct (A9 x X) as [Z|[<-|[]]]; [rewrite Z; apply orb_true_r|rewrite N.eqb_refl; reflexivity].
  - intros s Hs X. unfold mark_consistent in X. cbn [consistent set_consistent] in X. rewrite memN_cons in X.
    destruct (N.eqb_spec s t) as [->|Hne]; [destruct Hs as [Hs|Hs]; [destruct (HS Hs)|destruct (HG Hs)]|]. apply A10; assumption.
  - intros X. destruct (A13 X) as [N C]. split; [exact N|].
    intros x Y. unfold mark_consistent in Y. cbn [consistent set_consistent] in Y. rewrite memN_cons in Y.
    change (get_task_output w' x <> None). destruct (N.eq_dec x t) as [E|Hne]; [subst x; exact Ho|].
    apply C. rewrite (proj2 (N.eqb_neq x t) Hne) in Y. exact Y.
  - intros x X. unfold mark_consistent in X. cbn [consistent set_consistent] in X. rewrite memN_cons in X.
    destruct (N.eq_dec x t) as [E|Hne]; [subst x; right; apply (A16 t); left; reflexivity|].
    rewrite (proj2 (N.eqb_neq x t) Hne) in X. apply A15. exact X.
  - intros x [].
Qed.
Lemma post_pend S G pend w w' seg : Post S G [] w w' seg -> (forall x, In x pend -> In x (execs seg) \/ get_task_output w x <> None) -> Post S G pend w w' seg.
Proof. intros [A1 A2 A3 A4 A5 A6 A7 A8 A9 A10 A11 A12 A13 A14 A15 A16] HP. constructor; try assumption. intros x X. destruct (A9 x X) as [Z|[]]. left. exact Z. Qed.

Lemma okP_pre {A} S G pend w w1 a (m : outcome A) extra :
  Post S G [] w w1 a -> okP S G pend w1 m extra -> okP S G pend w m extra.
Proof.
  intros P1. destruct m as [x w2|k w2|]; cbn; [| |tauto].
  - intros [[b P2] X]. split; [|exact X]. exists (a ++ b). eapply post_seq; eassumption.
  - intros [->|[U [b P2]]]; [left; reflexivity|right]. split; [exact U|]. exists (a ++ b). eapply postA_seq; eassumption.
Qed.
Lemma okP_bind {A B} S G pend w (m : outcome A) (f : A -> world -> outcome B) extraA extraB :
  okP S G [] w m extraA ->
  (forall a w1 seg, Post S G [] w w1 seg -> extraA a w1 -> okP S G pend w1 (f a w1) extraB) ->
  okP S G pend w (bind m f) extraB.
Proof.
  destruct m as [x w1|k w1|]; cbn; [| |tauto].
  - intros [[a P1] X] F. eapply okP_pre; [exact P1|]. eapply F; eassumption.
  - intros H _. exact H.
Qed.
Lemma okP_weaken {A} S S' G' pend w (m : outcome A) extra : (forall s, In s S' \/ In s G' -> In s S) ->
  okP S [] pend w m extra -> okP S' G' pend w m extra.
Proof.
  intros HS. destruct m as [x w1|k w1|]; cbn; [| |tauto].
  - intros [[a P1] X]. split; [exists a; apply (post_weaken S); assumption|exact X].
  - intros [->|[U [a P1]]]; [left; reflexivity|right; split; [exact U|]; exists a; apply (postA_weaken S); assumption].
Qed.
Lemma okP_shift {A} S t pend w (m : outcome A) extra : okP (t :: S) [] pend w m extra -> okP S [t] pend w m extra.
Proof. apply okP_weaken, shift_in. Qed.
Lemma okP_drop {A} S t pend w (m : outcome A) extra : okP (t :: S) [] pend w m extra -> okP S [] pend w m extra.
Proof. apply okP_weaken, drop_in. Qed.
Lemma okP_extra {A} S G pend w (m : outcome A) (e1 e2 : A -> world -> Prop) :
  (forall a w', e1 a w' -> e2 a w') -> okP S G pend w m e1 -> okP S G pend w m e2.
Proof. intros F. destruct m; cbn; [|tauto|tauto]. intros [X Y]. split; [exact X|apply F; exact Y]. Qed.
Lemma okP_abort {A} S G pend w k extra : user_abort k -> StoreOK w -> okP S G pend w (@Abort A k w) extra.
Proof. intros U H. right. split; [exact U|]. exists []. apply (post_to_A S G []). apply post_refl. exact H. Qed.

Lemma okP_of_leafO {A} S t w (m : outcome A) :
  ~ In t S -> cur w = Some t -> get_task_output w t = None -> leafO t w m -> noresO t m ->
  okP S [t] [] w m (fun _ w' => cur w' = Some t /\ NoResAt w' t).
Proof.
  intros Ht Hc Ho. destruct m as [x w1|k w1|]; cbn; [| |tauto].
  - intros L N1. split; [apply (leaf_post S t w w1 L Ht Ho)|]. split; [rewrite (lf_cur _ _ _ L); exact Hc|exact N1].
  - intros [->|[U L]] _; [left; reflexivity|right]. split; [exact U|]. apply (leaf_postA S t w w1 L Ho).
Qed.

Lemma rw_chain_okP {A} S t w (m : outcome A) :
  StoreOK w -> ~ In t S -> cur w = Some t -> get_task_output w t = None -> NoResAt w t -> rw_chain w m ->
  okP S [t] [] w m (fun _ w' => cur w' = Some t /\ NoResAt w' t).
Proof.
  intros H Ht Hc Ho Hn C. destruct (rw_chain_leaf t w m H Hc C) as [LF NR].
  apply okP_of_leafO; [exact Ht|exact Hc|exact Ho|exact LF|apply NR; exact Hn].
Qed.

Lemma chain_post w w1 S t pend seg : Chain w (t :: S) -> Post S [t] pend w w1 seg -> Chain w1 (t :: S).
Proof. intros [N C] P1. split; [exact N|]. apply (chain_grow w w1); [exact C|apply (po_frame _ _ _ _ _ _ P1)]. Qed.
Lemma chain_post_all w w1 S pend seg : Chain w S -> Post S [] pend w w1 seg -> Chain w1 S.
Proof. intros [N C] P1. split; [exact N|]. apply (chain_frame w w1); [exact C|apply (po_frame _ _ _ _ _ _ P1)]. Qed.
Lemma chain_head_notin w S t : Chain w (t :: S) -> ~ In t S.
Proof. intros [N _]. inversion N; assumption. Qed.
Lemma chain_same w w' S : gr w' = gr w -> Chain w S -> Chain w' S.
Proof. intros G [N C]. split; [exact N|]. apply (chain_frame w w'); [exact C|]. intros s _. rewrite G. reflexivity. Qed.

Section Y.
Variable RC : rcid -> rchecker.
Variable OC : ocid -> ochecker.
Variable P : task -> prog.

(* make_task_consistent entered for t below the stack S: nothing recorded for a stack task changes, nothing on the stack is
   executed or marked, every executed task was not consistent before and is consistent afterwards; the only aborts are
   user-level ones and the model-only ABug 4 (excluded in NoBug4All.v), and both invariants hold in the store that is left *)
Definition MCspec (mc : world -> task -> outcome Z) : Prop :=
  forall w t S, StoreOK w -> Inv2 w -> Chain w S -> entry_ok w S t ->
    okP S [] [] w (mc w t) (fun o w' => cur w' = cur w /\ memN t (consistent w') = true /\ get_task_output w' t = Some o).
Definition REQspec (t : task) (S : list task) (req : world -> task -> ocid -> outcome Z) : Prop :=
  forall w x c, StoreOK w -> Inv2 w -> Chain w (t :: S) -> cur w = Some t -> get_task_output w t = None -> NoResAt w t ->
    okP S [t] [] w (req w x c) (fun _ w' => cur w' = Some t /\ NoResAt w' t).

Lemma leaf_chain w w' S t : Chain w (t :: S) -> Leaf t w w' -> Chain w' (t :: S).
Proof.
  intros C L. pose proof (chain_head_notin _ _ _ C) as Ht. destruct C as [N C]. split; [exact N|].
  apply (chain_grow w w'); [exact C|]. intros s Hs. apply (lf_grows _ _ _ L). intros E. apply tn_inj in E. subst. exact (Ht Hs).
Qed.

Lemma leaf_update t w x c st : StoreOK w -> get_edata (gr w) (tn t) (tn x) <> None ->
  Leaf t w (set_gr w (insert_edata (gr w) (tn t) (tn x) (DRequire x c st))).
Proof.
  intros H X. constructor; [|apply same_grows; apply insert_edata_same|exists []; split; reflexivity|reflexivity|reflexivity| |reflexivity].
  - apply GOK_update; [exact H|exact X|apply tn_even|apply tn_even|reflexivity].
  - intros m d Hm. cbn [gr set_gr]. rewrite get_edata_insert. destruct (pair_eqb (tn t, tn x) (m, d)) eqn:Z; [|reflexivity].
    apply pair_eqb_eq in Z. inversion Z. congruence.
Qed.

Lemma reserve_course t S w x c : StoreOK w -> Inv2 w -> Chain w (t :: S) -> cur w = Some t -> get_task_output w t = None ->
  let w2 := at_require w x c in
  Leaf t w w2 /\ cur w2 = Some t /\
  match add_dependency w2 (tn t) (tn x) DReserved with
  | (AddOk, w3) => Leaf t w w3 /\ edge w3 t x /\ Chain w3 (t :: S) /\ Inv2 w3 /\ get_task_output w3 t = None /\ cur w3 = Some t
  | (AddCycle, w3) => Leaf t w w3
  | (AddBug, _) => True
  end.
Proof.
  intros H J C Hc Ho w2. pose proof (leaf_require_start t w x c H) as L2. fold w2 in L2.
  assert (Hc2 : cur w2 = Some t) by (rewrite (lf_cur _ _ _ L2); exact Hc).
  split; [exact L2|]. split; [exact Hc2|].
  pose proof (leaf_add_dependency t w2 (tn x) DReserved (lf_ok _ _ _ L2) (tn_even x) ltac:(intros X; discriminate)) as A.
  destruct (add_dependency w2 (tn t) (tn x) DReserved) as [[| |] w3] eqn:AD; [|eapply leaf_trans; eassumption|exact Logic.I].
  assert (L3 : Leaf t w w3) by (eapply leaf_trans; eassumption).
  split; [exact L3|]. split; [eapply add_dependency_edge; [apply (lf_ok _ _ _ L2)|exact AD]|].
  split; [apply (leaf_chain w w3 S t C L3)|]. split; [apply (leaf_inv t w w3 L3 Ho J)|].
  split; [rewrite (leaf_out t w w3 t L3); exact Ho|rewrite (lf_cur _ _ _ L3); exact Hc].
Qed.

Lemma require_course mc t S w x c : MCspec mc ->
  StoreOK w -> Inv2 w -> Chain w (t :: S) -> cur w = Some t -> get_task_output w t = None ->
  let w2 := at_require w x c in
  match add_dependency w2 (tn t) (tn x) DReserved with
  | (AddOk, w3) =>
      Leaf t w w3 /\ edge w3 t x /\ Chain w3 (t :: S) /\ Inv2 w3 /\ get_task_output w3 t = None /\ cur w3 = Some t /\
      match mc w3 x with
      | Done o w4 =>
          let w5 := emit w4 (ERequireEnd x c (oc_stamp (OC c) o) o) in
          (exists seg, Post (t :: S) [] [] w3 w4 seg) /\ cur w4 = Some t /\
          require_with OC mc w x c = Done o (set_gr w5 (insert_edata (gr w5) (tn t) (tn x) (DRequire x c (oc_stamp (OC c) o))))
      | Abort k w4 => require_with OC mc w x c = Abort k w4
      | OutOfFuel => require_with OC mc w x c = OutOfFuel
      end
  | (AddCycle, w3) => Leaf t w w3 /\ require_with OC mc w x c = Abort ACycle w3
  | (AddBug, w3) => require_with OC mc w x c = Abort (ABug 4) w3
  end.
Proof.
  intros HM H J C Hc Ho w2. pose proof (reserve_course t S w x c H J C Hc Ho) as RP. cbv zeta in RP. fold w2 in RP.
  destruct RP as [L2 [Hc2 RP]]. unfold require_with. fold (at_require w x c). fold w2. unfold reserve_require_dependency. rewrite Hc2.
  destruct (add_dependency w2 (tn t) (tn x) DReserved) as [[| |] w3] eqn:AD; cbn [bind]; [|split; [exact RP|reflexivity]|reflexivity].
  destruct RP as [L3 [E3 [C3 [J3 [Ho3 Hc3]]]]].
  split; [exact L3|]. split; [exact E3|]. split; [exact C3|]. split; [exact J3|]. split; [exact Ho3|]. split; [exact Hc3|].
  pose proof (HM w3 x (t :: S) (lf_ok _ _ _ L3) J3 C3 E3) as M.
  destruct (mc w3 x) as [o w4|k w4|]; cbn [bind okP] in *; [|reflexivity|reflexivity].
  destruct M as [[s4 P4] [Hc4 _]]. rewrite Hc3 in Hc4. split; [exists s4; exact P4|]. split; [exact Hc4|].
  unfold update_require_dependency. cbn [cur emit]. rewrite Hc4.
  assert (E5 : get_edata (gr w4) (tn t) (tn x) <> None).
  { rewrite (po_eframe _ _ _ _ _ _ P4) by (left; reflexivity). apply (wf_edata _ (proj1 (lf_ok _ _ _ L3))). exact E3. }
  cbn [gr emit]. destruct (get_edata (gr w4) (tn t) (tn x)); [reflexivity|contradiction].
Qed.

(* the steps of t before and after the nested call touch only the entry of x in t's list *)
Lemma require_with_spec mc t S : MCspec mc -> REQspec t S (require_with OC mc).
Proof.
  intros HM w x c H J C Hc Ho Hn. pose proof (chain_head_notin _ _ _ C) as Ht.
  pose proof (require_course mc t S w x c HM H J C Hc Ho) as RR. cbv zeta in RR.
  pose proof (add_dependency_edata _ (tn t) (tn x) DReserved (proj1 (goc_task_ok (emit w (ERequireStart x c)) x H))) as ED.
  destruct (add_dependency _ (tn t) (tn x) DReserved) as [[| |] w3];
    [|destruct RR as [L3 ->]; right; split; [exact Logic.I|apply (leaf_postA S t w w3 L3 Ho)]|rewrite RR; left; reflexivity].
  destruct RR as [L3 [E3 [C3 [J3 [Ho3 [Hc3 RM]]]]]].
  assert (N3 : forall d, d <> tn x -> get_edata (gr w3) (tn t) d <> Some DReserved).
  { intros d Hd. destruct (ED (tn t) d) as [Y|[_ [Y _]]]; [rewrite Y, edata_goc_task; apply Hn|contradiction]. }
  destruct (leaf_post S t w w3 L3 Ht Ho) as [s3 P3]. eapply okP_pre; [exact P3|].
  pose proof (HM w3 x (t :: S) (lf_ok _ _ _ L3) J3 C3 E3) as M.
  destruct (mc w3 x) as [o w4|k w4|]; [|rewrite RM; apply okP_shift; exact M|rewrite RM; exact Logic.I].
  destruct RM as [[s4 P4] [Hc4 ->]]. eapply okP_pre; [apply post_shift; exact P4|].
  set (st := oc_stamp (OC c) o). set (w5 := emit w4 (ERequireEnd x c st o)).
  assert (E5 : forall d, get_edata (gr w5) (tn t) d = get_edata (gr w3) (tn t) d).
  { intros d. apply (po_eframe _ _ _ _ _ _ P4). left. reflexivity. }
  assert (L6 : Leaf t w4 (set_gr w5 (insert_edata (gr w5) (tn t) (tn x) (DRequire x c st)))).
  { eapply leaf_trans; [apply (leaf_emit t w4 (ERequireEnd x c st o) (po_ok _ _ _ _ _ _ P4) Logic.I)|apply leaf_update; [apply (po_ok _ _ _ _ _ _ P4)|]].
    rewrite E5. apply (wf_edata _ (proj1 (lf_ok _ _ _ L3))). exact E3. }
  split; [apply (leaf_post S t _ _ L6 Ht)|split; [exact Hc4|]].
  - rewrite (po_oframe _ _ _ _ _ _ P4) by (left; left; reflexivity). exact Ho3.
  - intros d. cbn [gr set_gr]. rewrite get_edata_insert. destruct (pair_eqb (tn t, tn x) (tn t, d)) eqn:Z; [discriminate|].
    rewrite E5. apply N3. intros ->. rewrite (proj2 (pair_eqb_eq _ _) eq_refl) in Z. discriminate.
Qed.

Lemma exec_seq_spec {A} t S w (m : outcome A) (f : A -> world -> outcome Z) :
  Inv2 w -> Chain w (t :: S) -> get_task_output w t = None ->
  okP S [t] [] w m (fun _ w' => cur w' = Some t /\ NoResAt w' t) ->
  (forall a w1, StoreOK w1 -> Inv2 w1 -> Chain w1 (t :: S) -> cur w1 = Some t -> get_task_output w1 t = None -> NoResAt w1 t ->
     okP S [t] [] w1 (f a w1) (fun _ w' => cur w' = Some t /\ NoResAt w' t)) ->
  okP S [t] [] w (bind m f) (fun _ w' => cur w' = Some t /\ NoResAt w' t).
Proof.
  intros J C Ho M F. eapply okP_bind; [exact M|]. intros a w1 s1 P1 [Hc1 Hn1].
  apply F; [apply (po_ok _ _ _ _ _ _ P1)|apply (po_inv _ _ _ _ _ _ P1 J)|eapply chain_post; eassumption|exact Hc1| |exact Hn1].
  rewrite (po_oframe _ _ _ _ _ _ P1) by (right; left; reflexivity). exact Ho.
Qed.

Lemma exec_prog_spec t S req : REQspec t S req ->
  forall p w, StoreOK w -> Inv2 w -> Chain w (t :: S) -> cur w = Some t -> get_task_output w t = None -> NoResAt w t ->
    okP S [t] [] w (exec_prog RC OC req p w) (fun _ w' => cur w' = Some t /\ NoResAt w' t).
Proof.
  intros HR. induction p as [o| |x c k IH|X o k IH] using prog_rw_ind; intros w H J C Hc Ho Hn.
  - split; [exists []; apply post_refl; exact H|split; [exact Hc|exact Hn]].
  - apply okP_abort; [exact Logic.I|exact H].
  - apply exec_seq_spec; [exact J|exact C|exact Ho|apply HR; assumption|intros a w1; apply IH].
  - rewrite exec_prog_rw. apply exec_seq_spec; [exact J|exact C|exact Ho| |intros a w1; apply IH].
    apply rw_chain_okP; [exact H|apply (chain_head_notin _ _ _ C)|exact Hc|exact Ho|exact Hn|apply run_rw_chain].
Qed.

Record ResetFacts (w : world) (t : task) : Prop := mkResetFacts {
  rt_ok : StoreOK (reset_task w t);
  rt_kids : forall m, m <> tn t -> kids_of (gr (reset_task w t)) m = kids_of (gr w) m;
  rt_live : forall m, live (gr w) m = true -> live (gr (reset_task w t)) m = true;
  rt_trace : trace (reset_task w t) = trace w;
  rt_cons : consistent (reset_task w t) = consistent w;
  rt_cur : cur (reset_task w t) = cur w;
  rt_edata : forall m d, m <> tn t -> get_edata (gr (reset_task w t)) m d = get_edata (gr w) m d;
  rt_row : forall d, get_edata (gr (reset_task w t)) (tn t) d = None;
  rt_out : get_task_output (reset_task w t) t = None;
  rt_outs : forall s, s <> t -> get_task_output (reset_task w t) s = get_task_output w s
}.
Lemma reset_task_facts w t : StoreOK w -> ResetFacts w t.
Proof.
  intros H. destruct (remove_outgoing_other (gr w) (tn t) (proj1 H)) as [K [L K0]].
  assert (H1 : StoreOK (reset_task w t)) by (apply GOK_remove_outgoing; exact H).
  constructor; [exact H1|exact K|exact L|reflexivity|reflexivity|reflexivity| | | |].
  - intros m d Hm. unfold reset_task. cbn [gr set_gr set_outs].
    destruct (remove_outgoing_view (gr w) (tn t) (proj1 H)) as [_ [_ [_ [_ [_ [_ VE]]]]]]. rewrite VE.
    destruct (N.eqb_spec m (tn t)); [congruence|reflexivity].
  - intros d. destruct (get_edata (gr (reset_task w t)) (tn t) d) eqn:X; [|reflexivity]. exfalso.
    assert (Y : In d (kids_of (gr (reset_task w t)) (tn t))) by (apply (wf_edata _ (proj1 H1)); congruence).
    unfold reset_task in Y. cbn [gr set_gr set_outs] in Y. rewrite K0 in Y. destruct Y.
  - rewrite output_reset, N.eqb_refl. reflexivity.
  - intros s Hs. rewrite output_reset. destruct (N.eqb_spec s t); [contradiction|reflexivity].
Qed.

Lemma reset_task_kids w t : StoreOK w -> kids_of (gr (reset_task w t)) (tn t) = [].
Proof. intros H. exact (proj2 (proj2 (remove_outgoing_other (gr w) (tn t) (proj1 H)))). Qed.

(* the store in which a task t is validated or executed below the stack S *)
Record Top (t : task) (S : list task) (w : world) : Prop := mkTop {
  top_ok : StoreOK w; top_inv : Inv2 w; top_chain : Chain w (t :: S); top_notin : ~ In t S;
  top_nc : memN t (consistent w) = false; top_live : live (gr w) (tn t) = true
}.

Lemma exec_start_facts w t S : Top t S w ->
  let w2 := startw w t in
  StoreOK w2 /\ Inv2 w2 /\ Chain w2 (t :: S) /\ NoResAt w2 t /\ kids_of (gr w2) (tn t) = [].
Proof.
  intros [H [N Co] C Ht Hn _] w2.
  destruct (reset_task_facts w t H) as [H1 K1 _ _ C1 _ E1 E0 O0 O1].
  split; [exact H1|]. split; [split|]; [| |split; [|split]].
  - intros t' d X. destruct (N.eq_dec t' t) as [->|Hne]; [exact O0|]. change (get_task_output (reset_task w t) t' = None).
    rewrite O1 by exact Hne. change (gr w2) with (gr (reset_task w t)) in X.
    rewrite E1 in X by (intros E; apply tn_inj in E; contradiction). apply (N t' d X).
  - intros t' X. change (memN t' (consistent (reset_task w t)) = true) in X. rewrite C1 in X.
    destruct (N.eq_dec t' t) as [->|Hne]; [rewrite Hn in X; discriminate|]. change (get_task_output (reset_task w t) t' <> None).
    rewrite O1 by exact Hne. apply (Co t' X).
  - destruct C as [Nd C]. split; [exact Nd|]. apply (chain_grow w w2); [exact C|].
    intros s Hs. apply K1. intros E. apply Ht. rewrite <- (tn_inj _ _ E). exact Hs.
  - intros d. change (gr w2) with (gr (reset_task w t)). rewrite E0. discriminate.
  - exact (reset_task_kids w t H).
Qed.

(* an execution, seen from the world it starts in: the start event with the reset executes t and leaves it pending; the body
   runs with t growing (post_seq_open); the end only stores the output of t *)
Lemma post_start S t w : Top t S w -> Post S [] [t] w (startw w t) [EExecStart t].
Proof.
  intros T. destruct (exec_start_facts w t S T) as [_ [J2 _]]. destruct T as [H J C Ht Hn _].
  destruct (reset_task_facts w t H) as [H1 K1 L1 _ _ _ E1 _ _ O1].
  assert (NT : forall m, m <> t -> tn m <> tn t) by (intros m Hm E; exact (Hm (tn_inj _ _ E))).
  assert (NS : forall s, In s S -> s <> t) by (intros s Hs ->; exact (Ht Hs)).
  constructor.
  - exact H1.
  - intros s Hs. apply K1, NT, NS, Hs.
  - intros g x [].
  - exact L1.
  - reflexivity.
  - constructor; [intros []|constructor].
  - intros x [<-|[]]. split; [exact Ht|split; [intros []|exact Hn]].
  - intros x X. exact X.
  - intros x [<-|[]]. right. left. reflexivity.
  - intros s _ X. exact X.
  - intros s d Hs. apply E1, NT, NS, Hs.
  - intros s [Hs|[]]. apply O1, NS, Hs.
  - intros _. exact J2.
  - intros m Hm _. assert (Hne : m <> t) by (intros ->; apply Hm; left; reflexivity).
    split; [apply K1, NT, Hne|]. split; [intros d; apply E1, NT, Hne|apply O1, Hne].
  - intros x X. left. exact X.
  - intros x [<-|[]]. left. left. reflexivity.
Qed.
Lemma post_end S t w w3 seg o c : Post S [] [t] w w3 seg -> In t (execs seg) -> NoResAt w3 t ->
  Post S [] [t] w (endw w3 t o c) (seg ++ [EExecEnd t o]).
Proof.
  intros [A1 A2 A3 A4 A5 A6 A7 A8 A9 A10 A11 A12 A13 A14 A15 A16] Xt Hn3.
  assert (O4 : forall s, s <> t -> get_task_output (endw w3 t o c) s = get_task_output w3 s).
  { intros s Hs. exact (output_set_other _ t o s Hs). }
  assert (EX : execs (seg ++ [EExecEnd t o]) = execs seg) by (rewrite execs_app; apply app_nil_r).
  constructor; rewrite ?EX; try assumption.
  - change (EExecEnd t o :: trace w3 = rev (seg ++ [EExecEnd t o]) ++ trace w). rewrite rev_app_distr, A5. reflexivity.
  - intros s [Hs|[]]. rewrite O4; [apply A12; left; exact Hs|]. intros ->. exact (proj1 (A7 t Xt) Hs).
  - intros Jw. destruct (A13 Jw) as [N3 Co3]. split.
    + intros t' d X. destruct (N.eq_dec t' t) as [->|Hne]; [destruct (Hn3 d X)|]. rewrite O4 by exact Hne. apply (N3 t' d X).
    + intros t' X. destruct (N.eq_dec t' t) as [->|Hne]; [|rewrite O4 by exact Hne; apply (Co3 t' X)].
      unfold endw. rewrite output_set_eq. discriminate.
  - intros m Hm Hg. destruct (A14 m Hm Hg) as [Q1 [Q2 Q3]]. split; [exact Q1|]. split; [exact Q2|].
    rewrite O4; [exact Q3|]. intros ->. exact (Hm Xt).
Qed.

Lemma execute_with_spec t S req : REQspec t S req ->
  forall w, Top t S w ->
    okP S [] [t] w (execute_with RC OC P req w t) (fun o w' => cur w' = cur w /\ get_task_output w' t = Some o).
Proof.
  intros HR w T. rewrite execute_with_eq.
  destruct (reset_task_facts w t (top_ok _ _ _ T)) as [_ _ _ _ _ U1 _ _ O0].
  destruct (exec_start_facts w t S T) as [H2 [J2 [Ch2 [N2 _]]]].
  pose proof (post_start S t w T) as PS.
  pose proof (exec_prog_spec t S req HR (P t) _ H2 J2 Ch2 eq_refl O0 N2) as B.
  destruct (exec_prog RC OC req (P t) _) as [o w3|k w3|]; cbn [bind okP] in *; [| |exact Logic.I].
  - destruct B as [[body PB] [_ Hn3]]. split; [|split; [exact U1|exact (output_set_eq _ t o)]].
    exists (([EExecStart t] ++ body) ++ [EExecEnd t o]). apply post_end; [|left; reflexivity|exact Hn3].
    apply (post_seq_open S [] [t] [] _ _ _ _ _ PS); [intros x [<-|[]]; left; reflexivity|exact PB].
  - destruct B as [->|[U [body PA]]]; [left; reflexivity|right]. split; [exact U|].
    exists ([EExecStart t] ++ body). exact (postA_seq_open S [] [t] _ _ _ _ _ PS PA).
Qed.

Lemma exec_mark_spec t S req : REQspec t S req ->
  forall w, Top t S w ->
    okP S [] [] w (bind (execute_with RC OC P req w t) (fun o w2 => Done o (mark_consistent w2 t)))
      (fun o w' => cur w' = cur w /\ memN t (consistent w') = true /\ get_task_output w' t = Some o).
Proof.
  intros HR w T. eapply holds_bind; [exact (execute_with_spec t S req HR w T)|]. intros o w2 _ [[seg Q] [Hc Ho]].
  split; [|split; [exact Hc|split; [|exact Ho]]].
  2:{ unfold mark_consistent. cbn [consistent set_consistent]. rewrite memN_cons, N.eqb_refl. reflexivity. }
  exists seg.
  apply post_mark; [exact Q|exact (top_notin _ _ _ T)|intros []|congruence].
Qed.

Definition dep_ok (w : world) (t : task) (d : option dep) : Prop :=
  exists dp, d = Some dp /\ dp <> DReserved /\ forall x c st, dp = DRequire x c st -> edge w t x.
Lemma deps_ok w t o : StoreOK w -> Inv2 w -> get_task_output w t = Some o -> forall d, In d (deps_of_task w t) -> dep_ok w t d.
Proof.
  intros [W [T _]] [N _] Ho d Hin. rewrite deps_of_task_map in Hin.
  apply in_map_iff in Hin. destruct Hin as [v [E Hv]].
  destruct (get_edata (gr w) (tn t) v) as [dp|] eqn:X; [|exfalso; apply (wf_edata _ W (tn t) v) in Hv; contradiction].
  subst d. exists dp. split; [reflexivity|]. split.
  - intros ->. rewrite (N t v X) in Ho. discriminate.
  - intros x c st ->. destruct (T _ _ _ X) as [_ Y]. cbn in Y. subst v. exact Hv.
Qed.

Lemma dep_ok_frame a a3 t ds : kids_of (gr a3) (tn t) = kids_of (gr a) (tn t) ->
  (forall d, In d ds -> dep_ok a t d) -> forall d, In d ds -> dep_ok a3 t d.
Proof.
  intros Kk HE d Hd. destruct (HE d Hd) as [dp [-> [NR' HX']]]. exists dp. split; [reflexivity|]. split; [exact NR'|].
  intros x c st E. unfold edge. rewrite Kk. apply (HX' x c st E).
Qed.

(* the invariant of the walk over the recorded dependencies of t *)
Lemma check_deps_next t S ds w w' seg : Post (t :: S) [] [] w w' seg ->
  Inv2 w -> Chain w (t :: S) -> (forall d, In d ds -> dep_ok w t d) ->
  StoreOK w' /\ Inv2 w' /\ Chain w' (t :: S) /\ (forall d, In d ds -> dep_ok w' t d).
Proof.
  intros P1 J C HE. split; [apply (po_ok _ _ _ _ _ _ P1)|]. split; [apply (po_inv _ _ _ _ _ _ P1 J)|].
  split; [apply (chain_post_all w w' _ _ _ C P1)|]. apply (dep_ok_frame w w' t ds); [|exact HE].
  apply (po_frame _ _ _ _ _ _ P1). left. reflexivity.
Qed.

Lemma check_deps_spec mc t S : MCspec mc ->
  forall ds w, StoreOK w -> Inv2 w -> Chain w (t :: S) -> (forall d, In d ds -> dep_ok w t d) ->
    okP (t :: S) [] [] w (check_deps RC OC mc ds w) (fun _ w' => cur w' = cur w).
Proof.
  intros HM. induction ds as [|d tl IH]; intros w H J C HE; cbn [check_deps].
  - split; [exists []; apply post_refl; exact H|reflexivity].
  - destruct (HE d (or_introl eq_refl)) as [dp [-> [NR HX]]].
    assert (HT : forall d, In d tl -> dep_ok w t d) by (intros d Hd; apply HE; right; exact Hd).
    assert (Res : forall r c st, okP (t :: S) [] [] w (check_deps RC OC mc (Some (DRead r c st) :: tl) w) (fun _ w' => cur w' = cur w)).
    { intros r c st. cbn [check_deps]. unfold check_resource_td. cbv zeta.
      set (w1 := emit w (ECheckResStart r c st)).
      set (xx := rc_check (RC c) (env w1) r (get_content w1 r) st).
      set (w2 := emit w1 (ECheckResEnd r c st xx)).
      assert (P2 : Post (t :: S) [] [] w w2 ([ECheckResStart r c st] ++ [ECheckResEnd r c st xx])).
      { eapply post_seq; apply post_emit; try exact H; exact Logic.I. }
      destruct xx as [| |e]; cbv iota beta.
      - eapply okP_pre; [exact P2|]. destruct (check_deps_next t S tl w w2 _ P2 J C HT) as [H2 [J2 [C2 HE2]]]. exact (IH w2 H2 J2 C2 HE2).
      - split; [eexists; exact P2|reflexivity].
      - split; [|reflexivity]. eexists. eapply post_seq; [exact P2|]. apply post_push_err. exact H. }
    destruct dp as [|x c st|r c st|r c st]; [congruence| |exact (Res r c st)|exact (Res r c st)].
    set (w1 := emit w (ECheckTaskStart x c st)).
    assert (P1 : Post (t :: S) [] [] w w1 [ECheckTaskStart x c st]) by (apply post_emit; [exact H|exact Logic.I]).
    destruct (check_deps_next t S tl w w1 _ P1 J C HT) as [H1 [J1 [C1 HE1]]].
    eapply okP_pre; [exact P1|]. apply (okP_bind (t :: S) [] [] w1 (mc w1 x) _ (fun _ w' => cur w' = cur w1)).
    + eapply okP_extra; [|apply (HM w1 x (t :: S) H1 J1 C1 (HX x c st eq_refl))]. intros a w' X. exact (proj1 X).
    + intros o w2 s2 P2 Hc2. destruct (check_deps_next t S tl w1 w2 _ P2 J1 C1 HE1) as [H2 [J2 [C2 HE2]]].
      set (w3 := emit w2 (ECheckTaskEnd x c st (negb (oc_check (OC c) o st)))).
      assert (P3 : Post (t :: S) [] [] w2 w3 [ECheckTaskEnd x c st (negb (oc_check (OC c) o st))]) by (apply post_emit; [exact H2|exact Logic.I]).
      eapply okP_pre; [exact P3|].
      destruct (oc_check (OC c) o st); [|split; [exists []; apply post_refl; exact H2|exact Hc2]].
      destruct (check_deps_next t S tl w2 w3 _ P3 J2 C2 HE2) as [H3 [J3 [C3 HE3]]].
      eapply okP_extra; [|apply IH; assumption]. intros a w' X. cbn beta in *. rewrite X. exact Hc2.
Qed.

Lemma goc_task_post S w t : StoreOK w -> Post S [] [] w (get_or_create_task_node w t) [].
Proof.
  intros H. pose proof (leaf_goc_task t w t H) as [A1 [G1 [G2 G3]] _ A4 _ _ A7].
  assert (K : forall m, kids_of (gr (get_or_create_task_node w t)) m = kids_of (gr w) m).
  { intros m. unfold get_or_create_task_node. destruct (live (gr w) (tn t)) eqn:L; [reflexivity|]. apply (add_node_same _ _). }
  apply post_quiet; try assumption.
  - unfold get_or_create_task_node. destruct (live _ _); reflexivity.
  - intros u v. apply edata_goc_task.
Qed.

Lemma mc_enter w t S : StoreOK w -> Inv2 w -> Chain w S -> entry_ok w S t ->
  let w0 := get_or_create_task_node w t in
  Post S [] [] w w0 [] /\ StoreOK w0 /\ Inv2 w0 /\ ~ In t S /\ Chain w0 (t :: S).
Proof.
  intros H J C E w0. pose proof (goc_task_post S w t H) as P0. fold w0 in P0.
  pose proof (po_ok _ _ _ _ _ _ P0) as H0. pose proof (chain_post_all w w0 S [] [] C P0) as C0.
  assert (E0 : entry_ok w0 S t).
  { destruct S as [|top tl]; [exact Logic.I|]. cbn in *. unfold edge in *. rewrite (po_frame _ _ _ _ _ _ P0) by (left; reflexivity). exact E. }
  pose proof (entry_not_in w0 S t (proj1 H0) C0 E0) as Ht.
  split; [exact P0|]. split; [exact H0|]. split; [apply (po_inv _ _ _ _ _ _ P0 J)|]. split; [exact Ht|].
  destruct C0 as [N0 K0]. split; [constructor; assumption|]. destruct S as [|top tl]; [exact Logic.I|]. split; [exact E0|exact K0].
Qed.

Definition exec_mark (req : world -> task -> ocid -> outcome Z) (w : world) (t : task) : outcome Z :=
  bind (execute_with RC OC P req w t) (fun o w2 => Done o (mark_consistent w2 t)).
Lemma mc_course f w t S : MCspec (make_consistent_td RC OC P f) -> StoreOK w -> Inv2 w -> Chain w S -> entry_ok w S t ->
  let w0 := get_or_create_task_node w t in
  let mcf := make_consistent_td RC OC P f in
  Post S [] [] w w0 [] /\
  match memN t (consistent w0), get_task_output w0 t with
  | true, Some o => make_consistent_td RC OC P (Datatypes.S f) w t = Done o w0
  | true, None => False
  | false, None => Top t S w0 /\ make_consistent_td RC OC P (Datatypes.S f) w t = exec_mark (require_with OC mcf) w0 t
  | false, Some o0 =>
      Top t S w0 /\ (forall d, In d (deps_of_task w0 t) -> dep_ok w0 t d) /\
      match check_deps RC OC mcf (deps_of_task w0 t) w0 with
      | Done ok w1 =>
          (exists seg, Post (t :: S) [] [] w0 w1 seg) /\ Top t S w1 /\ get_task_output w1 t = Some o0 /\
          make_consistent_td RC OC P (Datatypes.S f) w t = if ok then Done o0 (mark_consistent w1 t) else exec_mark (require_with OC mcf) w1 t
      | Abort k w1 => make_consistent_td RC OC P (Datatypes.S f) w t = Abort k w1
      | OutOfFuel => make_consistent_td RC OC P (Datatypes.S f) w t = OutOfFuel
      end
  end.
Proof.
  intros HM H J C E w0 mcf. destruct (mc_enter w t S H J C E) as [P0 [H0 [J0 [Ht C1]]]]. fold w0 in P0, H0, J0, C1. split; [exact P0|].
  cbn [make_consistent_td]. fold w0 mcf. destruct (memN t (consistent w0)) eqn:Hm.
  - destruct (get_task_output w0 t) eqn:Ho; [reflexivity|exact (proj2 J0 t Hm Ho)].
  - assert (T0 : Top t S w0) by (constructor; try assumption; apply live_goc_task).
    destruct (get_task_output w0 t) as [o0|] eqn:Ho; [|split; [exact T0|reflexivity]].
    pose proof (deps_ok w0 t o0 H0 J0 Ho) as HE. split; [exact T0|]. split; [exact HE|].
    pose proof (check_deps_spec mcf t S HM (deps_of_task w0 t) w0 H0 J0 C1 HE) as CD.
    destruct (check_deps RC OC mcf (deps_of_task w0 t) w0) as [ok w1|k w1|]; [|reflexivity|reflexivity]. destruct CD as [[s1 P1] _].
    assert (Ho1 : get_task_output w1 t = Some o0) by (rewrite (po_oframe _ _ _ _ _ _ P1) by (left; left; reflexivity); exact Ho).
    split; [exists s1; exact P1|]. split; [|split; [exact Ho1|cbn [bind]; destruct ok; [rewrite Ho1|]; reflexivity]].
    constructor; [apply (po_ok _ _ _ _ _ _ P1)|apply (po_inv _ _ _ _ _ _ P1 J0)|apply (chain_post_all w0 w1 _ _ _ C1 P1)|exact Ht| |apply (po_live _ _ _ _ _ _ P1), live_goc_task].
    apply (post_unmarked _ _ _ _ _ _ t P1); [left; left; reflexivity|exact Hm].
Qed.

Theorem make_consistent_td_spec fuel : MCspec (make_consistent_td RC OC P fuel).
Proof.
  induction fuel as [|f IH]; intros w t S H J C E; [exact Logic.I|].
  destruct (mc_course f w t S IH H J C E) as [P0 MC]. set (w0 := get_or_create_task_node w t) in *.
  assert (Hc0 : cur w0 = cur w) by (unfold w0, get_or_create_task_node; destruct (live _ _); reflexivity).
  eapply okP_pre; [exact P0|]. eapply okP_extra; [intros a w' X; rewrite <- Hc0; exact X|]. cbv beta.
  pose proof (exec_mark_spec t S _ (require_with_spec _ t S IH)) as EM.
  destruct (memN t (consistent w0)) eqn:Hm; destruct (get_task_output w0 t) as [o0|] eqn:Ho.
  - rewrite MC. split; [exists []; apply post_refl; apply (po_ok _ _ _ _ _ _ P0)|split; [reflexivity|split; [exact Hm|exact Ho]]].
  - destruct MC.
  - destruct MC as [[H0 J0 C1 _ _ _] [HE MC]]. pose proof (check_deps_spec _ t S IH (deps_of_task w0 t) w0 H0 J0 C1 HE) as CD.
    destruct (check_deps RC OC (make_consistent_td RC OC P f) (deps_of_task w0 t) w0) as [ok w1|k w1|]; [|rewrite MC; apply (okP_drop S t); exact CD|rewrite MC; exact Logic.I].
    destruct MC as [[s1 P1] [T1 [Ho1 ->]]]. destruct CD as [_ Hc1].
    eapply okP_pre; [exact (post_drop _ _ _ _ _ _ P1)|]. eapply okP_extra; [intros a w' X; rewrite <- Hc1; exact X|]. cbv beta.
    destruct ok; [|exact (EM w1 T1)]. split; [|split; [reflexivity|split; [|exact Ho1]]].
    2:{ unfold mark_consistent. cbn [consistent set_consistent]. rewrite memN_cons, N.eqb_refl. reflexivity. }
    exists []. apply post_mark; [|exact (top_notin _ _ _ T1)|intros []|rewrite Ho1; discriminate].
    apply post_pend; [apply post_refl; apply (po_ok _ _ _ _ _ _ P1)|]. intros x [<-|[]]. right. rewrite Ho1. discriminate.
  - destruct MC as [T0 ->]. exact (EM w0 T0).
Qed.

(* requiring a task that is on the stack (executing, or being validated below an executing task) is diagnosed as a cycle *)
Theorem require_on_stack_aborts mc w t S x c :
  StoreOK w -> Chain w (t :: S) -> cur w = Some t -> In x (t :: S) ->
  exists w', require_with OC mc w x c = Abort ACycle w' \/ require_with OC mc w x c = Abort (ABug 4) w'.
Proof.
  intros H C Hc Hx. unfold require_with. fold (at_require w x c).
  pose proof (leaf_require_start t w x c H) as L2.
  set (w2 := at_require w x c) in *.
  assert (Hc2 : cur w2 = Some t) by (rewrite (lf_cur _ _ _ L2); exact Hc).
  pose proof (leaf_chain w w2 S t C L2) as C2. pose proof (lf_ok _ _ _ L2) as H2.
  unfold reserve_require_dependency. rewrite Hc2. unfold add_dependency.
  assert (Cyc : tn t = tn x \/ path (gr w2) (tn x) (tn t)).
  { destruct (chain_path w2 (t :: S) x (proj2 C2) Hx t eq_refl) as [->|Pth]; [left; reflexivity|right; exact Pth]. }
  destruct (live (gr w2) (tn t)) eqn:Lt; [destruct (live (gr w2) (tn x)) eqn:Lx|].
  - pose proof (add_edge_cycle_iff (gr w2) (tn t) (tn x) DReserved (proj1 H2) Lt Lx) as I.
    destruct (add_edge (gr w2) (tn t) (tn x) DReserved) as [[b|[|]|] g'] eqn:AE; cbn [fst bind] in *.
    + discriminate (proj2 I Cyc).
    + discriminate (proj2 I Cyc).
    + eexists. left. reflexivity.
    + eexists. right. reflexivity.
  - exfalso. destruct Cyc as [Cyc|Cyc]; [rewrite Cyc in Lt; congruence|]. apply (path_live _ _ _ (proj1 H2)) in Cyc. destruct Cyc; congruence.
  - unfold add_edge. rewrite Lt. cbn [negb orb bind]. eexists. right. reflexivity.
Qed.
(* reuse: all recorded dependencies validate => cached output returned, the task itself is not executed *)
Theorem mc_reuse f w t St o0 w1 :
  StoreOK w -> Inv2 w -> Chain w St -> entry_ok w St t ->
  let w0 := get_or_create_task_node w t in
  memN t (consistent w0) = false -> get_task_output w0 t = Some o0 ->
  check_deps RC OC (make_consistent_td RC OC P f) (deps_of_task w0 t) w0 = Done true w1 ->
  make_consistent_td RC OC P (Datatypes.S f) w t = Done o0 (mark_consistent w1 t) /\
  exists seg, trace w1 = rev seg ++ trace w /\ ~ In t (execs seg).
Proof.
  intros H J0 C E w0 Hm Ho CD. destruct (mc_course f w t St (make_consistent_td_spec f) H J0 C E) as [P0 MC]. fold w0 in P0, MC.
  rewrite Hm, Ho, CD in MC. destruct MC as [_ [_ [[s1 P1] [_ [_ MC]]]]]. split; [exact MC|]. exists s1. split.
  - rewrite (po_seg _ _ _ _ _ _ P1). rewrite (po_seg _ _ _ _ _ _ P0). cbn [rev app]. reflexivity.
  - intros X. destruct (po_fresh _ _ _ _ _ _ P1 t X) as [Y _]. apply Y. left. reflexivity.
Qed.
End Y.

(* ABug 4 needs a missing node (the searches of add_edge never run out of fuel) *)
Lemma add_edge_not_missing {ED} (g : dag ED) s d e : WF g -> live g s = true -> live g d = true -> fst (add_edge g s d e) <> AErr NodeMissing.
Proof. intros W Ls Ld. destruct (add_edge_outcome g s d e W) as [[X|X]| | | | | ]; cbn [fst]; congruence. Qed.
Lemma add_dep_not_bug w s d dp : WF (gr w) -> live (gr w) s = true -> live (gr w) d = true -> fst (add_dependency w s d dp) <> AddBug.
Proof.
  intros W Ls Ld. unfold add_dependency.
  destruct (add_edge_outcome (gr w) s d dp W) as [[X|X]| | | | | ]; cbn [fst]; congruence.
Qed.
Lemma rw_node_live w w1 t r : gr w1 = gr w -> StoreOK w -> live (gr w) (tn t) = true ->
  let w2 := get_or_create_resource_node w1 r in
  WF (gr w2) /\ live (gr w2) (tn t) = true /\ live (gr w2) (rn r) = true.
Proof.
  intros G H Lt w2. assert (H1 : StoreOK w1) by (unfold StoreOK; rewrite G; exact H).
  split; [apply (goc_res_ok w1 r H1)|]. split; [|apply live_goc_res].
  apply (lf_grows _ _ _ (leaf_goc_res t w1 r H1)). rewrite G. exact Lt.
Qed.
Lemma step_live {A} t S w (a : A) w1 extra : okP S [t] [] w (Done a w1) extra -> live (gr w) (tn t) = true -> live (gr w1) (tn t) = true.
Proof. intros [[seg P1] _] L. apply (po_live _ _ _ _ _ _ P1). exact L. Qed.
