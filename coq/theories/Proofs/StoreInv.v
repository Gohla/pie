(* The store invariant over whole builds (histories: History.v): the dependency graph stays a well-formed DAG (C10's WF),
   edges are well typed (task -> task for requires, task -> resource for reads/writes), and every resource has at most
   one recorded writer (C06).  Instantiates the generic principle of InvE.v: holds after Done AND Abort outcomes. *)
From Coq Require Import List ZArith Lia.
From PieV Require Import Model.Dag Model.Build Proofs.DagLib Proofs.DagWF Proofs.DagPath Proofs.DagAddEdge
  Proofs.Steps Proofs.InvE.
Import ListNotations.
Open Scope N_scope.

Definition dep_target_ok (v : node) (dp : dep) : Prop :=
  match dp with DReserved => is_tn v = true | DRequire t _ _ => v = tn t | DRead r _ _ => v = rn r | DWrite r _ _ => v = rn r end.
Definition Typed (g : dag dep) : Prop :=
  forall u v dp, get_edata g u v = Some dp -> is_tn u = true /\ dep_target_ok v dp.
Definition writers (g : dag dep) (r : res) : list node :=
  map fst (filter (fun p => is_write (snd p)) (get_incoming_edges g (rn r))).
Definition SingleWriter (g : dag dep) : Prop := forall r, (length (writers g r) <= 1)%nat.
Definition GOK (g : dag dep) : Prop := WF g /\ Typed g /\ SingleWriter g.
Definition StoreOK (w : world) : Prop := GOK (gr w).

Lemma tn_even t : is_tn (tn t) = true. Proof. unfold is_tn, tn. rewrite N.even_mul. reflexivity. Qed.
Lemma rn_odd r : is_tn (rn r) = false.
Proof. unfold is_tn, rn. rewrite N.even_add, N.even_mul. reflexivity. Qed.
Lemma tn_rn t r : tn t <> rn r. Proof. intros E. pose proof (tn_even t). rewrite E, rn_odd in H. discriminate. Qed.
Lemma tn_inj a b : tn a = tn b -> a = b. Proof. unfold tn. lia. Qed.
Lemma rn_inj a b : rn a = rn b -> a = b. Proof. unfold rn. lia. Qed.
Lemma un_tn t : un (tn t) = t. Proof. unfold un, tn. apply N.div2_double. Qed.
Lemma un_rn r : un (rn r) = r. Proof. unfold un, rn. rewrite <- N.succ_double_spec. apply N.div2_succ_double. Qed.
Lemma even_tn n : is_tn n = true -> n = tn (un n).
Proof. unfold is_tn, tn, un. intros H. apply N.even_spec in H. destruct H as [m ->]. rewrite N.div2_double. reflexivity. Qed.

Lemma path_src_task (g : dag dep) u v : GOK g -> path g u v -> is_tn u = true.
Proof.
  intros [W [T _]] Pth. assert (X : exists c, In c (kids_of g u)) by (destruct Pth; eexists; eassumption).
  destruct X as [c X]. apply (wf_edata _ W) in X. destruct (get_edata g u c) as [dp|] eqn:E; [|contradiction].
  apply (T _ _ _ E).
Qed.

Lemma writers_ext g g' r :
  pars_of g' (rn r) = pars_of g (rn r) -> (forall p, get_edata g' p (rn r) = get_edata g p (rn r)) -> writers g' r = writers g r.
Proof.
  intros Hp He. unfold writers, get_incoming_edges. rewrite Hp. f_equal. f_equal. apply map_ext. intros p. rewrite He. reflexivity.
Qed.

Lemma writers_removeN_l (f f' : node -> option dep) s l :
  (forall p, p <> s -> f' p = f p) ->
  (length (filter (fun p : node * option dep => is_write (snd p)) (map (fun p => (p, f' p)) (removeN s l))) <=
   length (filter (fun p : node * option dep => is_write (snd p)) (map (fun p => (p, f p)) l)))%nat.
Proof.
  intros He. induction l as [|p tl IH]; [cbn; lia|].
  unfold removeN in *. cbn [filter map].
  destruct (N.eqb_spec s p) as [->|Hne]; cbn [negb filter map snd].
  - destruct (is_write (f p)); cbn [length]; lia.
  - rewrite He by congruence. destruct (is_write (f p)); cbn [length]; lia.
Qed.

Lemma writers_removeN g g' r s :
  pars_of g' (rn r) = removeN s (pars_of g (rn r)) -> (forall p, p <> s -> get_edata g' p (rn r) = get_edata g p (rn r)) ->
  (length (writers g' r) <= length (writers g r))%nat.
Proof.
  intros Hp He. unfold writers, get_incoming_edges. rewrite Hp. rewrite !map_length.
  apply (writers_removeN_l (fun p => get_edata g p (rn r)) (fun p => get_edata g' p (rn r))). exact He.
Qed.

Lemma GOK_empty : GOK empty.
Proof.
  split; [apply WF_empty|]. split.
  - intros u v dp H. discriminate.
  - intros r. cbn. lia.
Qed.

Lemma GOK_add_node g id : GOK g -> live g id = false -> GOK (add_node_at g id).
Proof.
  intros [W [T S]] Hd. split; [apply WF_add_node_at; assumption|]. split.
  - intros u v dp H. apply (T u v dp). exact H.
  - intros r. rewrite (writers_ext g (add_node_at g id) r); [apply S|apply pars_of_add_node|reflexivity].
Qed.

Lemma GOK_add_edge g s d dp :
  GOK g -> is_tn s = true -> dep_target_ok d dp ->
  (is_write (Some dp) = true -> forall r, d = rn r -> writers g r = []) ->
  GOK (snd (add_edge g s d dp)).
Proof.
  intros [W [T S]] Hs Hd Hw. split; [apply add_edge_WF; exact W|].
  pose proof (add_edge_view g s d dp W) as V.
  destruct (fst (add_edge g s d dp)) as [[|]|err|] eqn:R; [| | |destruct V].
  - destruct V as [Hnk [VL [VK [VP VE]]]]. split.
    + intros u v dp' H. rewrite VE in H. destruct (pair_eqb (s, d) (u, v)) eqn:X.
      * apply pair_eqb_eq in X. inversion X; subst. inversion H; subst. split; assumption.
      * apply (T u v dp'). exact H.
    + intros r. destruct (N.eq_dec d (rn r)) as [->|Hne].
      * unfold writers, get_incoming_edges. rewrite VP, N.eqb_refl, map_app, filter_app, map_app, app_length. cbn [map].
        rewrite VE, pair_eqb_refl.
        assert (Old : map (fun p => (p, get_edata (snd (add_edge g s (rn r) dp)) p (rn r))) (pars_of g (rn r)) = map (fun p => (p, get_edata g p (rn r))) (pars_of g (rn r))).
        { apply map_ext_in. intros p Hp. rewrite VE. destruct (pair_eqb (s, rn r) (p, rn r)) eqn:X; [|reflexivity].
          apply pair_eqb_eq in X. inversion X; subst. exfalso. apply Hnk. apply (wf_sym g W). exact Hp. }
        rewrite Old. fold (get_incoming_edges g (rn r)). fold (writers g r). cbn [filter snd].
        destruct (is_write (Some dp)) eqn:Wd; cbn [map length].
        -- rewrite (Hw eq_refl r eq_refl). cbn. lia.
        -- specialize (S r). lia.
      * rewrite (writers_ext g _ r); [apply S| |].
        -- rewrite VP. destruct (N.eqb_spec (rn r) d); [congruence|reflexivity].
        -- intros p. rewrite VE. destruct (pair_eqb (s, d) (p, rn r)) eqn:X; [|reflexivity]. apply pair_eqb_eq in X. inversion X. congruence.
  - destruct V as [-> _]. split; assumption.
  - rewrite V. split; assumption.
Qed.

Lemma WF_insert_edata_existing (g : dag dep) s d dp : WF g -> get_edata g s d <> None -> WF (insert_edata g s d dp).
Proof.
  intros [Wi Wk Wp Ws Wc We Wj Wr Wl Wt] H. constructor; try assumption.
  intros u v. change (kids_of (insert_edata g s d dp) u) with (kids_of g u). rewrite get_edata_insert.
  destruct (pair_eqb (s, d) (u, v)) eqn:X; [|apply We].
  apply pair_eqb_eq in X. inversion X; subst. split; [intros _; apply We; exact H|intros _; discriminate].
Qed.

Lemma GOK_update g s d dp :
  GOK g -> get_edata g s d <> None -> is_tn s = true -> is_tn d = true -> dep_target_ok d dp ->
  GOK (insert_edata g s d dp).
Proof.
  intros [W [T S]] H Hs Hd Ht. split; [apply WF_insert_edata_existing; assumption|]. split.
  - intros u v dp' X. rewrite get_edata_insert in X. destruct (pair_eqb (s, d) (u, v)) eqn:Y.
    + apply pair_eqb_eq in Y. inversion Y; subst. inversion X; subst. split; assumption.
    + apply (T u v dp'). exact X.
  - intros r. rewrite (writers_ext g _ r); [apply S|reflexivity|].
    intros p. rewrite get_edata_insert. destruct (pair_eqb (s, d) (p, rn r)) eqn:Y; [|reflexivity].
    apply pair_eqb_eq in Y. inversion Y; subst. rewrite rn_odd in Hd. discriminate.
Qed.

Lemma GOK_remove_outgoing g s : GOK g -> GOK (snd (remove_outgoing g s)).
Proof.
  intros [W [T S]]. split; [apply WF_remove_outgoing; exact W|].
  destruct (remove_outgoing_view g s W) as [_ [_ [_ [_ [VK [VP VE]]]]]]. split.
  - intros u v dp X. rewrite VE in X. destruct (N.eqb u s); [discriminate|]. apply (T u v dp). exact X.
  - intros r. specialize (S r). pose proof (writers_removeN g (snd (remove_outgoing g s)) r s (VP (rn r))) as X.
    assert (Y : forall p, p <> s -> get_edata (snd (remove_outgoing g s)) p (rn r) = get_edata g p (rn r)).
    { intros p Hp. rewrite VE. destruct (N.eqb_spec p s); [congruence|reflexivity]. }
    specialize (X Y). lia.
Qed.

Section Prim.
Variable RC : rcid -> rchecker.
Variable OC : ocid -> ochecker.
Variable P : task -> prog.

Lemma goc_ok w n : StoreOK w -> StoreOK (goc w n).
Proof. intros H. unfold goc. destruct (live (gr w) n) eqn:L; [exact H|]. apply GOK_add_node; assumption. Qed.
Lemma goc_task_ok w t : StoreOK w -> StoreOK (get_or_create_task_node w t). Proof. exact (goc_ok w (tn t)). Qed.
Lemma goc_res_ok w r : StoreOK w -> StoreOK (get_or_create_resource_node w r). Proof. exact (goc_ok w (rn r)). Qed.
Lemma add_dependency_ok w s d dp :
  StoreOK w -> is_tn s = true -> dep_target_ok d dp ->
  (is_write (Some dp) = true -> forall r, d = rn r -> writers (gr w) r = []) ->
  match add_dependency w s d dp with (AddBug, _) => True | (_, w') => StoreOK w' end.
Proof.
  intros H Hs Hd Hw. unfold add_dependency.
  pose proof (GOK_add_edge (gr w) s d dp H Hs Hd Hw) as G.
  destruct (add_edge (gr w) s d dp) as [[b|[|]|] g'] eqn:E; cbn [fst snd] in G; try exact Coq.Init.Logic.I; exact G.
Qed.

Lemma writers_nil_of_none w r : get_task_writing_to_resource w r = None -> writers (gr w) r = [].
Proof.
  unfold get_task_writing_to_resource, writers, incoming. destruct (filter _ _) as [|[n d] tl]; [reflexivity|discriminate].
Qed.

(* the dependency is recorded for a task node, on a resource that has no writer yet if it is a write *)
Lemma lstep_ok w w' : StoreOK w -> lstep w w' -> StoreOK w'.
Proof.
  intros H S. destruct S as [w e _|w r|w r v|w t r dp ar w' _ [c [st Hdp]] Hw E NB]; [exact H|apply goc_res_ok; exact H|destruct v; exact H|].
  assert (Hd : dep_target_ok (rn r) dp) by (destruct Hdp; subst dp; reflexivity).
  assert (HW : is_write (Some dp) = true -> forall r0, rn r = rn r0 -> writers (gr w) r0 = []).
  { intros X r0 Er. apply rn_inj in Er. subst r0. apply writers_nil_of_none. apply Hw. exact X. }
  pose proof (add_dependency_ok w (tn t) (rn r) dp H (tn_even t) Hd HW) as A. rewrite E in A.
  destruct ar; [exact A|exact A|contradiction NB; reflexivity].
Qed.
Lemma lfail_same w w' : StoreOK w -> lfail w w' -> w' = w.
Proof.
  intros [W _] F. destruct F as [w t r dp w' _ _ E]. unfold add_dependency in E. pose proof (add_edge_view (gr w) (tn t) (rn r) dp W) as V.
  destruct (add_edge (gr w) (tn t) (rn r) dp) as [[b|[|]|] g']; cbn [fst snd] in *; try discriminate; [|destruct V].
  inversion E. rewrite V. destruct w; reflexivity.
Qed.
Lemma rw_chain_rel {A} (R : world -> world -> Prop) w (m : outcome A) :
  (forall w, R w w) -> (forall a b c, R a b -> R b c -> R a c) -> (forall a b, StoreOK a -> lstep a b -> R a b) ->
  StoreOK w -> rw_chain w m -> match m with Done _ w' | Abort _ w' => R w w' /\ StoreOK w' | OutOfFuel => True end.
Proof.
  intros Rr Rt Hs H C. assert (X : forall w', chain lstep w w' -> R w w' /\ StoreOK w').
  { intros w' Cw. apply (chain_rel lstep StoreOK R (fun a _ => Rr a) Rt) in Cw; [exact Cw| |exact H].
    intros a b Ha S. split; [apply Hs; assumption|apply (lstep_ok a b Ha S)]. }
  eapply holds_mono; [exact C|intros x w' _; apply X|].
  intros k w' _ [[_ [w0 [C0 F]]]|[_ C0]]; [|apply X; exact C0]. rewrite (lfail_same w0 w' (proj2 (X w0 C0)) F). apply X. exact C0.
Qed.

Theorem StoreOK_preserved : Preserved RC StoreOK.
Proof.
  constructor.
  - intros w e _ H. exact H.
  - intros w t H. apply goc_task_ok. exact H.
  - intros w t H. unfold reserve_require_dependency. destruct (cur w) as [src|]; [|exact H].
    pose proof (add_dependency_ok w (tn src) (tn t) DReserved H (tn_even src) (tn_even t)) as A.
    destruct (add_dependency w (tn src) (tn t) DReserved) as [[| |] w'].
    + apply A. discriminate.
    + right. apply A. discriminate.
    + left. reflexivity.
  - intros w t c st H. unfold update_require_dependency. destruct (cur w) as [src|]; [|exact H].
    destruct (get_edata (gr w) (tn src) (tn t)) eqn:X; [|right; exact H].
    apply GOK_update; try assumption; try apply tn_even; try reflexivity. congruence.
  - apply lstep_rw, lstep_ok.
  - intros w t H. unfold StoreOK, reset_task. cbn [gr emit set_cur set_gr set_outs]. apply GOK_remove_outgoing. exact H.
  - intros w w0 t o H. exact H.
  - intros w t H. exact H.
  - intros w e H. exact H.
  - intros w q H. exact H.
  - intros w r H. apply goc_res_ok. exact H.
Qed.

End Prim.
