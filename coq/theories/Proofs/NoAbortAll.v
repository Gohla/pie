(* C20 (first clause) for EVERY history: inside the static program class -- WFP (a generated resource is read only after a
   direct require of its generator; tasks write only their own products) plus a well-founded require order [ord] and no
   panicking task -- NO build ever aborts: top-down, bottom-up and mixed sessions, whatever was built before.
   (The cycle, hidden-dependency and overlapping-write diagnoses cannot fire; internal errors: NoBugAll.v.)
   The pass of CertAll.v (Section Pass) for the bundle K (CertAll.v) /\ Q (NoAbort.v), on top of VPre (NoBugAll.v): A_pass. *)
From Coq Require Import List NArith Lia.
From PieV Require Import Model.Dag Model.Build Proofs.DagLib Proofs.StoreInv Proofs.Effects Proofs.Steps Proofs.Local
  Proofs.ExecInv Proofs.Cert Proofs.Stable Proofs.NoAbort Proofs.NoBug4All Proofs.NoReentry
  Proofs.NoBugAll Proofs.CertAll.
Import ListNotations.
Open Scope N_scope.

Section NA.
Variable gen : res -> option task.
Variable wck : rcid -> Prop.
Variable ord : task -> nat.
Variable RC : rcid -> rchecker.
Variable OC : ocid -> ochecker.
Variable P : task -> prog.
Variable sf : rcid -> res -> content -> Z.
Hypothesis HS : forall c env r v, rc_stamp (RC c) env r v = inl (sf c r v).
Hypothesis HWF : forall t, WFP gen wck t [] (P t).
Hypothesis HWO : forall t, WFO ord t (P t).
Let HNR : forall t, NR [] (P t). Proof. intros t. eapply WFP_NR. apply HWF. Qed.

Notation K := (K RC OC P sf).
Notation Q := (Q gen ord).

Definition okA {A} (m : outcome A) : Prop := match m with Done _ w' => Q w' | Abort _ _ => False | OutOfFuel => True end.

Definition AREQ (req : world -> task -> ocid -> outcome Z) : Prop :=
  forall w x c, VPre (cur w) w -> K w -> Q w -> (forall t, cur w = Some t -> (ord x < ord t)%nat /\ ~ In (tn x) (kidsT w t)) -> okA (req w x c).
Definition AMC (mc : world -> task -> outcome Z) : Prop :=
  forall a w t, VPre a w -> live (gr w) (tn t) = true -> reach a w t -> K w -> Q w -> okA (mc w t).

Lemma geq_Q w w' : geq w w' -> Q w -> Q w'.
Proof. intros G H a. apply (QR_same gen ord w); [apply G|intros d; apply G|apply H]. Qed.

Lemma cur_live a w t : VPre a w -> cur w = Some t -> live (gr w) (tn t) = true.
Proof. intros Hw Hc. apply (proj1 (proj2 (proj1 (proj1 Hw)))). exact Hc. Qed.

Definition rw_class {X} (t : task) (seen : list node) (o : rwop X) : Prop :=
  if rw_writes o then gen (rw_res o) = Some t else gen (rw_res o) = None \/ exists g, gen (rw_res o) = Some g /\ In (tn g) seen.
Lemma rw_A {X} (o : rwop X) t w x w1 : VPre (Some t) w -> cur w = Some t -> K w -> Q w -> rw_class t (kidsT w t) o ->
  run_rw RC o w = Done x w1 -> RowStep t w w1 (rn (rw_res o)) (rw_rec sf o (get_content w (rw_res o))) -> VPre (Some t) w1 /\ cur w1 = Some t /\ K w1 /\ Q w1.
Proof.
  intros Hw Hc Kw Hq Hg E RS.
  pose proof (rw_KA RC OC P sf t o w Hw Hc Kw) as Y. rewrite E in Y. destruct Y as [P1 [C1 [K1 _]]].
  split; [exact P1|]. split; [exact C1|]. split; [exact K1|].
  pose proof (proj1 (rw_chain_leaf t w _ (proj1 (proj1 (proj1 Hw))) Hc (run_rw_chain RC o w))) as LF. rewrite E in LF. cbn [leafO] in LF.
  apply (Q_rw gen ord sf o t w w1 _ LF RS Hg Hq).
Qed.

Lemma exec_prog_A req t : VREQ req -> KAREQ RC OC P sf req -> AREQ req ->
  forall p w, VPre (Some t) w -> cur w = Some t -> K w -> Q w -> WFP gen wck t (kidsT w t) p -> WFO ord t p -> okA (exec_prog RC OC req p w).
Proof.
  intros [[HreqR HreqN] HreqV] [HQ HRow] HA. induction p as [o| |x c k IH|X o k IH] using prog_rw_ind; intros w Hw Hc Kw Hq HW HO.
  - exact Hq.
  - inversion HO.
  - inversion HW as [| |sn x' c' k' Hx Hk| | |]; subst. inversion HO as [|x' c' k' Hox Hok| | |]; subst.
    assert (Hw' : VPre (cur w) w) by (rewrite Hc; exact Hw).
    pose proof (HQ w x c Hw' Kw) as KQ. pose proof (HRow w x c t) as RQ.
    pose proof (HA w x c Hw' Kw Hq ltac:(intros t' X; rewrite Hc in X; inversion X; subst t'; split; assumption)) as AQ.
    cbn [exec_prog]. eapply holds_bind; [exact AQ|]. intros ox w1 E Q1.
    destruct (step_pre (cur w) w _ ox w1 Hw' (HreqR w x c (proj1 (proj1 Hw))) (HreqN w x c (proj1 Hw')) (HreqV w x c Hw') E) as [P1 [C1 _]].
    rewrite Hc in P1, C1. rewrite E in KQ. destruct KQ as [K1 _]. destruct (RQ ox w1 Hw' Kw Hc Hx E) as [A _].
    apply IH; [exact P1|exact C1|exact K1|exact Q1|rewrite A; apply Hk|apply Hok].
  - destruct (WFP_rw gen wck t _ o k HW) as [Hx [Hg [_ Hk]]]. rewrite exec_prog_rw.
    destruct (run_rw_ret gen ord RC sf HS o w t (proj1 (proj1 (proj1 Hw))) Hc (cur_live _ w t Hw Hc) Hq Hg (fun _ => Hx)) as [xv [w1 Eq]].
    destruct (run_rw_row RC sf HS o w t xv w1 (proj1 (proj1 (proj1 Hw))) Hc Hx Eq) as [_ RS].
    destruct (rw_A o t w xv w1 Hw Hc Kw Hq Hg Eq RS) as [P1 [C1 [K1 Q1]]].
    rewrite Eq. cbn [bind]. apply IH; [exact P1|exact C1|exact K1|exact Q1|rewrite (proj1 RS); apply Hk|apply (WFO_rw ord t o k HO)].
Qed.

Lemma execute_with_A req a w t : VREQ req -> KAREQ RC OC P sf req -> AREQ req ->
  VPre a w -> live (gr w) (tn t) = true -> reach a w t -> K w -> Q w -> okA (execute_with RC OC P req w t).
Proof.
  intros Hreq HQ HA Hw Lt R Kw Hq. rewrite execute_with_eq.
  destruct (exec_start_Pre a w t (proj1 Hw) Lt R) as [Hnot [P2 PR]].
  destruct (exec_start_KT RC OC P sf w t (proj1 (proj1 (proj1 Hw))) Kw) as [K2 KT2].
  pose proof (exec_start_V w t (proj1 (proj1 (proj1 Hw))) (proj2 Hw) Hnot) as V2.
  set (w2 := startw w t) in *.
  pose proof (Q_exec_start gen ord w t (proj1 (proj1 (proj1 Hw))) Hq) as Q2. fold w2 in Q2.
  pose proof (exec_prog_A req t Hreq HQ HA (P t) w2 (conj P2 V2) eq_refl K2 Q2) as X. rewrite KT2 in X. specialize (X (HWF t) (HWO t)).
  eapply holds_bind; [exact X|]. intros o w3 _ Q3. apply (Q_same gen ord w3); [reflexivity|exact Q3].
Qed.

Lemma require_with_A mc : VMC mc -> AMC mc -> AREQ (require_with OC mc).
Proof.
  intros HV HA w t c Hw Kw Hq Hord. pose proof (require_start (cur w) w t c Hw) as [Q2 P2].
  assert (G2 : geq w (at_require w t c))
    by (eapply geq_trans; [apply (geq_same w (emit w (ERequireStart t c))); reflexivity|apply geq_goc]).
  destruct (cur w) as [s|] eqn:Hc.
  2:{ destruct (require_with_top OC mc w t c ltac:(rewrite Hc; exact Hw) Hc HV) as [_ [_ [Lt ->]]].
      eapply holds_bind; [exact (HA None _ t P2 Lt ltac:(intros c' X; discriminate) (lv_geq_K RC OC P sf w _ Q2 G2 Kw) (geq_Q w _ G2 Hq))|].
      intros o w4 _ Q4. apply (Q_same gen ord w4); [reflexivity|exact Q4]. }
  assert (H : StoreOK w) by apply Hw. destruct (Hord s eq_refl) as [Ho Hnew].
  destruct (require_with_sub RC OC mc w t c s ltac:(rewrite Hc; exact Hw) Hc HV) as [ar [w3 [E [RS X]]]].
  destruct (reserve_K RC OC P sf w s t w3 RS H Hc Kw) as [K3 _].
  (* the required task is smaller in the order: no cycle *)
  pose proof (no_cycle gen ord _ s t DReserved (proj1 (proj1 (proj1 P2))) (geq_Q w _ G2 Hq) Ho) as NCy. rewrite E in NCy. cbn [fst] in NCy.
  destruct ar; [destruct X as [_ [R3 ->]]|contradiction NCy; reflexivity|destruct X].
  pose proof (Q_reserve gen ord s w w3 t (leaf_others s w w3 (rs_leaf _ _ _ _ RS)) (reserve_row s w t c w3 H Hnew E) Ho Hq) as Q3.
  eapply holds_bind; [exact (HA (Some s) w3 t (rs_V _ _ _ _ RS) (rs_live _ _ _ _ RS) R3 K3 Q3)|]. intros o w4 _ MA.
  intros x. apply (QR_same_res gen ord w4); [reflexivity| |apply MA].
  intros r. unfold row, recorded. cbn [gr set_gr emit]. rewrite get_edata_insert.
  destruct (pair_eqb (tn s, tn t) (tn x, rn r)) eqn:Z; [|reflexivity]. apply pair_eqb_eq in Z. inversion Z as [[Z1 Z2]]. exfalso. exact (tn_rn _ _ Z2).
Qed.

Lemma require_bu_with_A mc : VMC mc -> AMC mc -> AREQ (require_bu_with OC mc).
Proof.
  intros HV HA w x c Hw Kw Hq Hord. unfold require_bu_with. eapply holds_bind; [exact (require_with_A mc HV HA w x c Hw Kw Hq Hord)|].
  intros o w' _ Q'. apply (Q_same gen ord w'); [reflexivity|exact Q'].
Qed.

(* the instance of CertAll.APass for K /\ Q: an abort cannot happen (Ab is False), nothing is claimed for the anchor (Gu is True) *)
Definition KQ (w : world) : Prop := K w /\ Q w.
Notation APassA := (APass RC OC P KQ (fun _ _ _ => True) (fun _ => False) (KAMC RC OC P sf) (fun req => KAREQ RC OC P sf req /\ AREQ req)).
Lemma okJ_A {A} a w (m : outcome A) : okJ KQ (fun _ _ _ => True) (fun _ => False) a w m -> okA m.
Proof. destruct m; cbn; [intros H; apply H|trivial|trivial]. Qed.
Lemma endJ_A {A} (m : outcome A) : endJ KQ (fun _ => False) m -> okA m.
Proof. destruct m; cbn; [intros H; apply H|trivial|trivial]. Qed.
Lemma JMC_AMC mc : JMC KQ (fun _ _ _ => True) (fun _ => False) mc -> AMC mc.
Proof. intros H a w t Hw Lt R Kw Hq. exact (okJ_A _ _ _ (H a w t Hw Lt R (conj Kw Hq))). Qed.
Lemma AMC_JMC mc : KAMC RC OC P sf mc -> AMC mc -> JMC KQ (fun _ _ _ => True) (fun _ => False) mc.
Proof.
  intros HQ HA a w t Hw Lt R [Kw Hq]. specialize (HQ a w t Hw Lt R Kw). specialize (HA a w t Hw Lt R Kw Hq).
  destruct (mc w t); [split; [split; [apply HQ|exact HA]|exact Logic.I]|exact HA|exact Logic.I].
Qed.
Lemma A_pass : APassA.
Proof.
  constructor; trivial.
  - intros w w' G O [Kw Hq]. split; [apply (geq_K RC OC P sf w); assumption|apply (geq_Q w); assumption].
  - apply (make_consistent_td_KA RC OC P sf HS HNR).
  - intros f. apply (bottom_up_KA RC OC P sf HS HNR f).
  - intros mc HV HQ HJ. split; [apply (require_with_KA RC OC P sf); assumption|apply require_with_A; [exact HV|apply JMC_AMC; exact HJ]].
  - intros mc HV HQ HJ. split; [apply (require_bu_with_KA RC OC P sf); assumption|apply require_bu_with_A; [exact HV|apply JMC_AMC; exact HJ]].
  - intros req a w t HV [HQ HA] Hw Lt R [Kw Hq].
    pose proof (execute_with_KA RC OC P sf HS HNR req a w t HV HQ Hw Lt R Kw) as X. pose proof (execute_with_A req a w t HV HQ HA Hw Lt R Kw Hq) as Y.
    destruct (execute_with RC OC P req w t); [split; [split; [apply X|exact Y]|exact Logic.I]|exact Y|exact Logic.I].
  - intros req w t c [[HQ _] HA] Hw Hc [Kw Hq]. specialize (HQ w t c Hw Kw).
    specialize (HA w t c Hw Kw Hq ltac:(intros t' X; rewrite Hc in X; discriminate)).
    destruct (req w t c); [split; [apply HQ|exact HA]|exact HA|exact Logic.I].
Qed.

Lemma check_deps_A mc t0 : VMC mc -> CertAll.KAMC RC OC P sf mc -> AMC mc ->
  forall ds w, VPre (Some t0) w -> DR t0 w ds -> DGood ds -> K w -> Q w -> okA (check_deps RC OC mc ds w).
Proof.
  intros HV HQ HA ds w Hw HR HG Kw Hq. exact (okJ_A _ _ _ (check_deps_J RC OC P _ _ _ _ _ A_pass mc t0 HV (AMC_JMC mc HQ HA) ds w Hw HR HG (conj Kw Hq))).
Qed.
Theorem make_consistent_td_A fuel : AMC (make_consistent_td RC OC P fuel).
Proof. apply JMC_AMC, (make_consistent_td_J RC OC P _ _ _ _ _ A_pass). Qed.

Definition ABU (fuel : nat) : Prop :=
  (forall a w t, VPre a w -> live (gr w) (tn t) = true -> reach a w t -> K w -> Q w -> okA (bu_execute_and_schedule RC OC P fuel w t)) /\
  AMC (bu_make_consistent RC OC P fuel) /\
  (forall a w t, VPre a w -> reach a w t -> K w -> Q w -> okA (bu_require_scheduled_now RC OC P fuel w t)).
Theorem bottom_up_A fuel : ABU fuel.
Proof.
  destruct (bottom_up_J RC OC P _ _ _ _ _ A_pass fuel) as [B1 [B2 B3]]. split; [|split; [apply JMC_AMC; exact B2|]].
  - intros a w t Hw Lt R Kw Hq. exact (okJ_A _ _ _ (B1 a w t Hw Lt R (conj Kw Hq))).
  - intros a w t Hw R Kw Hq. exact (okJ_A _ _ _ (B3 a w t Hw R (conj Kw Hq))).
Qed.
Theorem execute_scheduled_A fuel : forall w, VPre None w -> K w -> Q w -> okA (execute_scheduled RC OC P fuel w).
Proof.
  intros w Hw Kw Hq. exact (endJ_A _ (execute_scheduled_J RC OC P _ _ _ _ _ A_pass fuel w Hw (conj Kw Hq))).
Qed.

Variable always : ocid.

Lemma session_require_A fuel w t : VS w -> K w -> Q w -> okA (session_require RC OC P always fuel w t).
Proof.
  intros Sw Kw Hq. exact (endJ_A _ (session_require_J RC OC P _ _ _ _ _ A_pass always fuel w t Sw (conj Kw Hq))).
Qed.
Lemma schedule_tasks_affected_by_Q w r : Q w -> Q (schedule_tasks_affected_by RC w r).
Proof. apply geq_Q, sched_geq, schedule_tasks_affected_by_chain. Qed.
Lemma session_bottom_up_A fuel w ch : VS w -> K w -> Q w -> okA (session_bottom_up RC OC P fuel w ch).
Proof.
  intros Sw Kw Hq. exact (endJ_A _ (session_bottom_up_J RC OC P _ _ _ _ _ A_pass fuel w ch Sw (conj Kw Hq))).
Qed.

Definition no_abort (r : sres) : Prop := match r with RAbort _ => False | _ => True end.

Lemma okA_ses {A} (m : outcome A) : okVS m -> match m with Done _ w' | Abort _ w' => K w' | OutOfFuel => True end -> okA m ->
  sesA (fun w => Hinv w /\ K w /\ Q w) (fun w => VS w /\ K w /\ Q w) (fun _ => False) m.
Proof. destruct m; cbn [sesA okVS okA]; [intros X Y Z; split; [exact X|split; [exact Y|exact Z]]|intros _ _ []|trivial]. Qed.

Lemma run_history_VQA fuel h : forall w, Hinv w /\ K w /\ Q w ->
  Forall (Forall no_abort) (fst (run_history RC OC P always fuel w h)) /\
  Hinv (snd (run_history RC OC P always fuel w h)) /\ K (snd (run_history RC OC P always fuel w h)) /\ Q (snd (run_history RC OC P always fuel w h)).
Proof. exact (run_history_J RC OC P _ _ _ _ _ A_pass always (fun _ => False) (fun k w _ X => match X with end) fuel h). Qed.

Theorem run_history_A fuel h : forall w, Hinv w -> K w -> Q w ->
  Forall (Forall no_abort) (fst (run_history RC OC P always fuel w h)).
Proof. intros w Hw Kw Hq. apply (run_history_VQA fuel h w (conj Hw (conj Kw Hq))). Qed.

Theorem run_history_AQ fuel h : forall w, Hinv w -> K w -> Q w ->
  Hinv (snd (run_history RC OC P always fuel w h)) /\ Q (snd (run_history RC OC P always fuel w h)).
Proof. intros w Hw Kw Hq. destruct (run_history_VQA fuel h w (conj Hw (conj Kw Hq))) as [_ [X [_ Y]]]. split; assumption. Qed.

(* C05, the "Hence" clause, in the static class, for EVERY history: in every reachable store every recorded reader of a resource
   directly requires the task recorded as its writer (so it is a transitive dependency) *)
Theorem static_class_readers_require_writer_any_history fuel h :
  let w := snd (run_history RC OC P always fuel init_world h) in
  forall rd g r dp dp', row w rd (rn r) = Some dp -> is_read (Some dp) = true -> row w g (rn r) = Some dp' -> is_write (Some dp') = true ->
    In (tn g) (kidsT w rd) /\ contains_transitive_task_dependency w rd g = Some true.
Proof.
  intros w rd g r dp dp' R1 I1 R2 I2.
  destruct (run_history_AQ fuel h init_world) as [Jw Qw]; [apply Hinv_init|apply K_init|apply Q_init|]. fold w in Jw, Qw.
  pose proof (proj1 (proj2 (Qw g)) r dp' R2 I2) as G.
  destruct (proj2 (proj2 (Qw rd)) r dp R1 I1) as [E|[g' [E I']]]; [congruence|]. rewrite G in E. inversion E; subst g'.
  split; [exact (before_in _ _ _ I')|]. apply cte_edge; [apply Jw|exact (before_in _ _ _ I')].
Qed.

(* C20 (first clause), EVERY history in the static class (top-down, bottom-up and mixed sessions): no build aborts *)
Theorem static_class_never_aborts_any_history fuel h :
  Forall (Forall no_abort) (fst (run_history RC OC P always fuel init_world h)).
Proof.
  apply run_history_A; [apply Hinv_init|apply K_init|apply Q_init].
Qed.

End NA.
