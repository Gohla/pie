(* More operation-level theorems: stamp timing (C09), returned output = cached output (C01, C02; outIs: for every
   interpreter), completeness of bottom-up scheduling for one resource (C03). *)
From Coq Require Import List NArith ZArith Bool.
From PieV Require Import Model.Dag Model.Build Proofs.Steps Proofs.Local.
Import ListNotations.
Open Scope N_scope.

Section Local2.
Variable RC : rcid -> rchecker.
Variable OC : ocid -> ochecker.
Variable P : task -> prog.

(* C09: what is stamped, and when *)
(* read: the stamp is taken from the very content the task's view is computed from, before the task continues;
   a failing stamp returns the error to the task and records nothing *)
Lemma sess_read_done w t r c x w' :
  cur w = Some t -> sess_read RC w r c = Done x w' ->
  (exists st, rc_stamp (RC c) (env w) r (get_content w r) = inl st /\
              x = inl (rc_view (RC c) (get_content w r)) /\
              w' = snd (add_dependency (emit (at_read w r c) (EReadEnd r c st)) (tn t) (rn r) (DRead r c st)))
  \/ (exists e, rc_stamp (RC c) (env w) r (get_content w r) = inr e /\ x = inr e /\ w' = at_read w r c).
Proof.
  intros Hc. rewrite (sess_read_eq RC), Hc. destruct (hidden_read_check (at_read w r c) t r); [discriminate|].
  destruct (rc_stamp (RC c) (env w) r (get_content w r)) as [st|e]; intros H.
  - left. exists st. apply record_done in H. destruct H as [-> ->]. repeat split; reflexivity.
  - right. exists e. inversion H. repeat split; reflexivity.
Qed.

(* write: the stamp is taken from the content AFTER the task's write function has run *)
Lemma sess_write_done w t r c v x w' :
  cur w = Some t -> sess_write RC w r c v = Done x w' ->
  validate_write (at_write w r c) t r = None /\
  ((exists st, rc_stamp (RC c) (env w) r v = inl st /\ x = inl tt /\
               w' = snd (add_dependency (emit (set_content (at_write w r c) r v) (EWriteEnd r c st)) (tn t) (rn r) (DWrite r c st)))
   \/ (exists e, rc_stamp (RC c) (env w) r v = inr e /\ x = inr e /\ w' = set_content (at_write w r c) r v)).
Proof.
  intros Hc. rewrite (sess_write_eq RC), Hc. destruct (validate_write (at_write w r c) t r); [discriminate|].
  destruct (rc_stamp (RC c) (env w) r v) as [st|e]; intros H; (split; [reflexivity|]).
  - left. exists st. apply record_done in H. destruct H as [-> ->]. repeat split; reflexivity.
  - right. exists e. inversion H. repeat split; reflexivity.
Qed.

(* require: the value handed to the caller is the one make_task_consistent returned; the require-end event carries it;
   the dependency is updated with the output checker's stamp of that very output *)
Lemma require_with_done mc w t c o w' :
  require_with OC mc w t c = Done o w' ->
  exists w3 w4, mc w3 t = Done o w4 /\
    update_require_dependency (emit w4 (ERequireEnd t c (oc_stamp (OC c) o) o)) t c (oc_stamp (OC c) o) = Done tt w'.
Proof.
  unfold require_with. intros H. apply bind_done in H as ([] & w3 & _ & H). apply bind_done in H as (o' & w4 & Em & H).
  apply bind_done in H as ([] & w6 & Eu & H). inversion H; subst. exists w3, w4. split; [exact Em|exact Eu].
Qed.

Lemma update_require_dependency_done w src t c st w' :
  cur w = Some src -> update_require_dependency w t c st = Done tt w' ->
  w' = set_gr w (insert_edata (gr w) (tn src) (tn t) (DRequire t c st)).
Proof.
  intros Hc. unfold update_require_dependency. rewrite Hc.
  destruct (get_edata _ _ _); [|discriminate]. intros H. inversion H. reflexivity.
Qed.

(* C01, C02: a completed make_task_consistent returns the output it stored and marks the task consistent, so that the memo
   case answers every later require of the session *)

Lemma execute_with_output req w t o w' :
  execute_with RC OC P req w t = Done o w' -> get_task_output w' t = Some o.
Proof.
  unfold execute_with. intros H. apply bind_done in H as (o' & w3 & _ & H). inversion H; subst. apply output_set_eq.
Qed.

Lemma marked w t o : get_task_output w t = Some o ->
  get_task_output (mark_consistent w t) t = Some o /\ memN t (consistent (mark_consistent w t)) = true.
Proof. intros H. split; [exact H|]. cbn. rewrite N.eqb_refl. reflexivity. Qed.
Lemma execute_marked req w t o w' :
  bind (execute_with RC OC P req w t) (fun o w2 => Done o (mark_consistent w2 t)) = Done o w' ->
  get_task_output w' t = Some o /\ memN t (consistent w') = true.
Proof.
  intros H. apply bind_done in H as (o2 & w2 & He & H). inversion H; subst. apply marked. eapply execute_with_output. exact He.
Qed.

Lemma make_consistent_returns_cached fuel w t o w' :
  make_consistent_td RC OC P fuel w t = Done o w' ->
  get_task_output w' t = Some o /\ memN t (consistent w') = true.
Proof.
  destruct fuel as [|f]; [discriminate|]. cbn [make_consistent_td].
  set (w0 := get_or_create_task_node w t).
  destruct (memN t (consistent w0)) eqn:Hm.
  - destruct (get_task_output w0 t) eqn:Ho; [|discriminate]. intros H. inversion H; subst. split; assumption.
  - destruct (get_task_output w0 t); [|apply execute_marked].
    unfold bind at 1. destruct (check_deps _ _ _ _ _) as [ok w1| |]; try discriminate.
    destruct (if ok then get_task_output w1 t else None) eqn:Hr; [|apply execute_marked].
    intros H. inversion H; subst. apply marked. destruct ok; [exact Hr|discriminate].
Qed.

(* C03, one reported resource: every recorded read or write dependency on it whose checker does not report Consistent gets
   its task queued *)
Lemma fold_try_chain b l w : chain sstep w (fold_left (try_schedule_edge RC b) l w).
Proof. apply chain_fold. intros w0 p. apply try_schedule_edge_chain. Qed.

Lemma fold_try_env b l w :
  env (fold_left (try_schedule_edge RC b) l w) = env w /\ rstate (fold_left (try_schedule_edge RC b) l w) = rstate w.
Proof. destruct (sched_same _ _ (fold_try_chain b l w)) as [B [A _]]. split; [exact A|exact B]. Qed.

Lemma fold_try_complete l w n r c st (is_w : bool) :
  In (n, Some (if is_w then DWrite r c st else DRead r c st)) l ->
  rc_check (RC c) (env w) r (get_content w r) st <> Consistent ->
  In (un n) (queue (fold_left (try_schedule_edge RC false) l w)).
Proof.
  revert w. induction l as [|p tl IH]; intros w Hin Hne; [destruct Hin|].
  cbn [fold_left]. destruct Hin as [Heq|Hin].
  - subst p. apply (sched_same _ _ (fold_try_chain false tl _)).
    assert (Q : In (un n) (queue (try_schedule RC w (un n) r c st))).
    { rewrite try_schedule_eq. cbv zeta.
      destruct (rc_check (RC c) (env w) r (get_content w r) st); [congruence| |]; apply queue_add_in. }
    destruct is_w; exact Q.
  - apply IH; [exact Hin|].
    destruct (sched_same _ _ (try_schedule_edge_chain RC false w p)) as [B [A _]]. unfold get_content in Hne |- *. rewrite A, B. exact Hne.
Qed.

Lemma schedule_affected_complete w r n c st (is_w : bool) :
  In (n, Some (if is_w then DWrite r c st else DRead r c st))
     (incoming (get_or_create_resource_node (emit w (ESchedByResStart r)) r) (rn r)) ->
  rc_check (RC c) (env w) r (get_content w r) st <> Consistent ->
  In (un n) (queue (schedule_tasks_affected_by RC w r)).
Proof.
  intros Hin Hne. unfold schedule_tasks_affected_by. cbn [queue emit].
  eapply fold_try_complete; [exact Hin|].
  destruct (goc_res_gr (emit w (ESchedByResStart r)) r) as [g ->]. exact Hne.
Qed.


(* the same for every interpreter, as a claim about the outcome: what make_task_consistent, require and an execution return
   is the output they leave stored (by construction, no invariant needed) *)
Definition outIs (t : task) (m : outcome Z) : Prop := match m with Done o w' => get_task_output w' t = Some o | _ => True end.
Lemma execute_with_out req w t : outIs t (execute_with RC OC P req w t).
Proof. pose proof (execute_with_output req w t) as X. destruct (execute_with RC OC P req w t); cbn; [apply X; reflexivity|exact I|exact I]. Qed.
Lemma require_with_out mc w t c : (forall w', outIs t (mc w' t)) -> outIs t (require_with OC mc w t c).
Proof.
  intros Hmc. unfold require_with. destruct (reserve_require_dependency _ _) as [[] w3|k w3|]; cbn [bind outIs]; try exact I.
  eapply holds_bind; [exact (Hmc w3)|]. intros o w4 _ Ho.
  unfold update_require_dependency. cbn [cur emit]. destruct (cur w4); [|exact Ho]. cbn [gr emit].
  destruct (get_edata _ _ _); cbn [bind holds]; [exact Ho|exact I].
Qed.
Lemma td_out fuel : forall w t, outIs t (make_consistent_td RC OC P fuel w t).
Proof. intros w t. pose proof (make_consistent_returns_cached fuel w t) as X. destruct (make_consistent_td RC OC P fuel w t); cbn; [apply (X _ _ eq_refl)|exact I|exact I]. Qed.
Lemma schedule_after_out w t o x : get_task_output (schedule_after RC OC w t o) x = get_task_output w x.
Proof.
  destruct (schedule_after_chain RC OC w t o) as [wm [C ->]]. unfold get_task_output. cbn [outs mark_consistent set_consistent]. f_equal.
  revert C. apply (chain_in sstep (fun a b => outs b = outs a)); [reflexivity|congruence|intros a b S; apply (sstep_fields a b S)].
Qed.

(* unfolding equations (keep the recursive calls folded) *)
Lemma bes_S f w t : bu_execute_and_schedule RC OC P (S f) w t =
  bind (execute_with RC OC P (require_bu_with OC (bu_make_consistent RC OC P f)) w t) (fun o w1 => Done o (schedule_after RC OC w1 t o)).
Proof. reflexivity. Qed.
Lemma bmc_S f w t : bu_make_consistent RC OC P (S f) w t =
  if memN t (consistent w) then match get_task_output w t with Some o => Done o w | None => Abort (ABug 2) w end
  else if (match get_task_output w t with None => true | Some _ => false end) && negb (memN t (queue w)) then
    execute_with RC OC P (require_bu_with OC (bu_make_consistent RC OC P f)) w t
  else bind (bu_require_scheduled_now RC OC P f w t) (fun r w1 =>
    match r with Some o => Done o w1 | None => match get_task_output w1 t with Some o => Done o w1 | None => Abort (ABug 6) w1 end end).
Proof. reflexivity. Qed.
Lemma rsn_S f w t : bu_require_scheduled_now RC OC P (S f) w t =
  match queue w with
  | [] => Done None w
  | _ => match pop_least_from w t with
         | None => Done None w
         | Some (m, w1) => bind (bu_execute_and_schedule RC OC P f w1 m) (fun o w2 =>
             if N.eqb m t then Done (Some o) w2 else bu_require_scheduled_now RC OC P f w2 t)
         end
  end.
Proof. reflexivity. Qed.

Lemma bu_out fuel :
  (forall w t, outIs t (bu_execute_and_schedule RC OC P fuel w t)) /\
  (forall w t, outIs t (bu_make_consistent RC OC P fuel w t)) /\
  (forall w t, match bu_require_scheduled_now RC OC P fuel w t with Done (Some o) w' => get_task_output w' t = Some o | _ => True end).
Proof.
  induction fuel as [|f [IH1 [IH2 IH3]]]; [repeat split; intros; exact I|].
  assert (E1 : forall w t, outIs t (bu_execute_and_schedule RC OC P (S f) w t)).
  { intros w t. rewrite bes_S. eapply holds_bind; [exact (execute_with_out _ w t)|]. intros o w1 _ X. cbn [holds]. rewrite schedule_after_out. exact X. }
  split; [exact E1|]. split.
  - intros w t. rewrite bmc_S. destruct (memN t (consistent w)).
    + destruct (get_task_output w t) eqn:Ho; cbn; [exact Ho|exact I].
    + destruct ((match get_task_output w t with None => true | Some _ => false end) && negb (memN t (queue w)))%bool; [apply execute_with_out|].
      eapply holds_bind; [exact (IH3 w t)|]. intros [o|] w1 _ X; [exact X|].
      destruct (get_task_output w1 t) eqn:Ho; cbn; [exact Ho|exact I].
  - intros w t. rewrite rsn_S. destruct (queue w); [exact I|].
    destruct (pop_least_from w t) as [[m w1]|]; [|exact I].
    eapply holds_bind; [exact (IH1 w1 m)|]. intros o w2 _ X. destruct (N.eqb_spec m t) as [->|Hm]; [exact X|apply IH3].
Qed.

Lemma es_S f w : execute_scheduled RC OC P (S f) w =
  match queue_pop w with None => Done tt w | Some (t, w1) => bind (bu_execute_and_schedule RC OC P f w1 t) (fun _ w2 => execute_scheduled RC OC P f w2) end.
Proof. reflexivity. Qed.


End Local2.
