(* Operation-level theorems about the pie model: what each context operation decides, for ALL worlds, checkers and
   programs (no induction over executions here; see InvE.v for invariants over whole builds). *)
From Coq Require Import List NArith ZArith Bool.
From PieV Require Import Model.Dag Model.Build Proofs.Steps.
Import ListNotations.
Open Scope N_scope.

Lemma alookup_aremove_eq {V} (l : list (N * V)) k : alookup (aremove l k) k = None.
Proof. induction l as [|[a x] tl IH]; cbn; [reflexivity|]. destruct (N.eqb a k) eqn:Z; cbn; [exact IH|rewrite Z; exact IH]. Qed.
Lemma alookup_aremove_other {V} (l : list (N * V)) k k' : k' <> k -> alookup (aremove l k) k' = alookup l k'.
Proof.
  intros Hne. induction l as [|[a v] tl IH]; cbn; [reflexivity|].
  destruct (N.eqb_spec a k) as [->|Ha]; cbn.
  - destruct (N.eqb_spec k k'); [congruence|exact IH].
  - destruct (N.eqb a k'); [reflexivity|exact IH].
Qed.
Lemma alookup_app_some {V} (l1 l2 : list (N * V)) k v : alookup l1 k = Some v -> alookup (l1 ++ l2) k = Some v.
Proof. induction l1 as [|[a x] tl IH]; cbn; [discriminate|]. destruct (N.eqb a k); [tauto|exact IH]. Qed.
Lemma alookup_app_none {V} (l1 l2 : list (N * V)) k : alookup l1 k = None -> alookup (l1 ++ l2) k = alookup l2 k.
Proof. induction l1 as [|[a x] tl IH]; cbn; [reflexivity|]. destruct (N.eqb a k); [discriminate|exact IH]. Qed.
Lemma alookup_aset_eq {V} (l : list (N * V)) k v : alookup (aset l k v) k = Some v.
Proof. unfold aset. rewrite alookup_app_none by apply alookup_aremove_eq. cbn. rewrite N.eqb_refl. reflexivity. Qed.
Lemma alookup_aset_other {V} (l : list (N * V)) k v k' : k' <> k -> alookup (aset l k v) k' = alookup l k'.
Proof.
  intros Hne. unfold aset. rewrite <- (alookup_aremove_other l k k' Hne). destruct (alookup (aremove l k) k') as [x|] eqn:E.
  - apply alookup_app_some. exact E.
  - rewrite (alookup_app_none _ _ _ E). cbn. destruct (N.eqb_spec k k'); [congruence|reflexivity].
Qed.

Lemma output_set w t o x : get_task_output (set_task_output w t o) x = if N.eqb x t then Some o else get_task_output w x.
Proof.
  unfold get_task_output, set_task_output. cbn [outs set_outs].
  destruct (N.eqb_spec x t) as [->|Hx]; [apply alookup_aset_eq|apply alookup_aset_other; exact Hx].
Qed.
Lemma output_set_eq w t o : get_task_output (set_task_output w t o) t = Some o.
Proof. rewrite output_set, N.eqb_refl. reflexivity. Qed.
Lemma output_set_other w t o x : x <> t -> get_task_output (set_task_output w t o) x = get_task_output w x.
Proof. intros Hx. rewrite output_set. destruct (N.eqb_spec x t); [contradiction|reflexivity]. Qed.
Lemma output_reset w t x : get_task_output (reset_task w t) x = if N.eqb x t then None else get_task_output w x.
Proof.
  unfold get_task_output, reset_task. cbn [outs set_gr set_outs].
  destruct (N.eqb_spec x t) as [->|Hx]; [apply alookup_aremove_eq|apply alookup_aremove_other; exact Hx].
Qed.
Lemma get_content_set_content w r v : get_content (set_content w r v) r = v.
Proof. unfold get_content, set_content. destruct v as [z|]; cbn; [apply alookup_aset_eq|apply alookup_aremove_eq]. Qed.

Lemma deps_of_task_map w t : deps_of_task w t = map (fun d => get_edata (gr w) (tn t) d) (kids_of (gr w) (tn t)).
Proof. unfold deps_of_task, get_outgoing_edges. rewrite map_map. reflexivity. Qed.

(* the end of Context::read / write: the dependency is added; the only other exit is the model's "node missing" *)
Lemma record_done {A} (x y : A) w s d dp w' :
  match add_dependency w s d dp with (AddBug, w4) => Abort (ABug 4) w4 | (_, w4) => Done x w4 end = Done y w' ->
  y = x /\ w' = snd (add_dependency w s d dp).
Proof. destruct (add_dependency w s d dp) as [[| |] w4]; intros H; inversion H; split; reflexivity. Qed.
Lemma record_abort {A} (x : A) w s d dp k w' :
  match add_dependency w s d dp with (AddBug, w4) => Abort (ABug 4) w4 | (_, w4) => Done x w4 end = Abort k w' -> k = ABug 4.
Proof. destruct (add_dependency w s d dp) as [[| |] w4]; intros H; inversion H; reflexivity. Qed.

Section Local.
Variable RC : rcid -> rchecker.
Variable OC : ocid -> ochecker.
Variable P : task -> prog.

(* the world in which a read / write is validated *)
Definition at_read (w : world) (r : res) (c : rcid) : world := get_or_create_resource_node (emit w (EReadStart r c)) r.
Definition at_write (w : world) (r : res) (c : rcid) : world := get_or_create_resource_node (emit w (EWriteStart r c)) r.
Lemma rw_at_read w r c : rw_at (ORead r c) w = at_read w r c. Proof. reflexivity. Qed.
Lemma rw_at_write w r c v : rw_at (OWrite r c v) w = at_write w r c. Proof. reflexivity. Qed.
Lemma rw_at_written_to w r c v : rw_at (OWrittenTo r c v) w = at_write (set_content w r v) r c. Proof. reflexivity. Qed.

Lemma cur_goc w r : cur (get_or_create_resource_node w r) = cur w.
Proof. exact (cur_goc_res w r). Qed.

(* the checker sees the environment and the content of the world the operation started in *)
Lemma sess_read_eq w r c : sess_read RC w r c =
  match cur w with
  | None => Done (inl (rc_view (RC c) (get_content w r))) w
  | Some t =>
    if hidden_read_check (at_read w r c) t r then Abort AHidden (at_read w r c) else
    match rc_stamp (RC c) (env w) r (get_content w r) with
    | inr e => Done (inr e) (at_read w r c)
    | inl st =>
      match add_dependency (emit (at_read w r c) (EReadEnd r c st)) (tn t) (rn r) (DRead r c st) with
      | (AddBug, w4) => Abort (ABug 4) w4
      | (_, w4) => Done (inl (rc_view (RC c) (get_content w r))) w4
      end
    end
  end.
Proof.
  unfold sess_read. destruct (cur w) as [t|]; [|reflexivity]. fold (at_read w r c).
  replace (env (at_read w r c)) with (env w); [reflexivity|].
  unfold at_read. destruct (goc_res_gr (emit w (EReadStart r c)) r) as [g ->]. reflexivity.
Qed.
Lemma sess_write_eq w r c v : sess_write RC w r c v =
  match cur w with
  | None => Done (inl tt) (set_content w r v)
  | Some t =>
    match validate_write (at_write w r c) t r with
    | Some k => Abort k (at_write w r c)
    | None =>
      match rc_stamp (RC c) (env w) r v with
      | inr e => Done (inr e) (set_content (at_write w r c) r v)
      | inl st =>
        match add_dependency (emit (set_content (at_write w r c) r v) (EWriteEnd r c st)) (tn t) (rn r) (DWrite r c st) with
        | (AddBug, w5) => Abort (ABug 4) w5
        | (_, w5) => Done (inl tt) w5
        end
      end
    end
  end.
Proof.
  unfold sess_write. destruct (cur w) as [t|]; [|reflexivity]. fold (at_write w r c). rewrite get_content_set_content.
  replace (env (set_content (at_write w r c) r v)) with (env w); [reflexivity|].
  unfold at_write. destruct (goc_res_gr (emit w (EWriteStart r c)) r) as [g ->]. destruct v; reflexivity.
Qed.

(* C05: hidden dependencies *)
Lemma sess_read_hidden w t r c wr :
  cur w = Some t ->
  get_task_writing_to_resource (at_read w r c) r = Some wr ->
  contains_transitive_task_dependency (at_read w r c) t wr <> Some true ->
  sess_read RC w r c = Abort AHidden (at_read w r c) /\ rstate (at_read w r c) = rstate w /\ outs (at_read w r c) = outs w.
Proof.
  intros Hc Hw Hn. rewrite sess_read_eq, Hc. unfold hidden_read_check. rewrite Hw.
  split; [destruct (contains_transitive_task_dependency (at_read w r c) t wr) as [[|]|]; [congruence|reflexivity|reflexivity]|].
  unfold at_read. destruct (goc_res_gr (emit w (EReadStart r c)) r) as [g ->]. split; reflexivity.
Qed.

Lemma sess_read_hidden_only w r c w' :
  sess_read RC w r c = Abort AHidden w' ->
  exists t wr, cur w = Some t /\ get_task_writing_to_resource (at_read w r c) r = Some wr /\
               contains_transitive_task_dependency (at_read w r c) t wr <> Some true.
Proof.
  rewrite sess_read_eq. destruct (cur w) as [t|]; [|discriminate].
  destruct (hidden_read_check (at_read w r c) t r) eqn:Hh.
  - intros _. exists t. unfold hidden_read_check in Hh.
    destruct (get_task_writing_to_resource (at_read w r c) r) as [wr|]; [|discriminate]. exists wr.
    split; [reflexivity|]. split; [reflexivity|]. intros E. rewrite E in Hh. discriminate.
  - destruct (rc_stamp _ _ _ _); [|discriminate]. intros H. apply record_abort in H. discriminate.
Qed.

Lemma validate_write_overlap w t r wr :
  get_task_writing_to_resource w r = Some wr -> validate_write w t r = Some AOverlap.
Proof. intros H. unfold validate_write. rewrite H. reflexivity. Qed.

Lemma validate_write_hidden w t r rd :
  get_task_writing_to_resource w r = None ->
  In rd (get_tasks_reading_from_resource w r) ->
  contains_transitive_task_dependency w rd t <> Some true ->
  validate_write w t r = Some AHidden.
Proof.
  intros Hw Hin Hn. unfold validate_write. rewrite Hw.
  assert (E : existsb (fun rd0 => match contains_transitive_task_dependency w rd0 t with Some true => false | _ => true end)
                      (get_tasks_reading_from_resource w r) = true).
  { apply existsb_exists. exists rd. split; [exact Hin|].
    destruct (contains_transitive_task_dependency w rd t) as [[|]|]; congruence. }
  rewrite E. reflexivity.
Qed.

Lemma validate_write_none w t r :
  validate_write w t r = None <->
  get_task_writing_to_resource w r = None /\
  forall rd, In rd (get_tasks_reading_from_resource w r) -> contains_transitive_task_dependency w rd t = Some true.
Proof.
  unfold validate_write. destruct (get_task_writing_to_resource w r) as [wr|]; [split; [discriminate|intros [H _]; discriminate]|].
  destruct (existsb _ _) eqn:E.
  - split; [discriminate|]. intros [_ H]. apply existsb_exists in E. destruct E as [rd [Hin Hb]].
    rewrite (H rd Hin) in Hb. discriminate.
  - split; [|reflexivity]. intros _. split; [reflexivity|]. intros rd Hin.
    apply not_true_iff_false in E. rewrite existsb_exists in E.
    destruct (contains_transitive_task_dependency w rd t) as [[|]|] eqn:E2; [reflexivity| |];
      (destruct E; exists rd; split; [exact Hin|rewrite E2; reflexivity]).
Qed.

Lemma sess_write_rejected w t r c v k :
  cur w = Some t -> validate_write (at_write w r c) t r = Some k ->
  sess_write RC w r c v = Abort k (at_write w r c) /\ rstate (at_write w r c) = rstate w.
Proof.
  intros Hc Hv. rewrite sess_write_eq, Hc, Hv. split; [reflexivity|].
  unfold at_write. destruct (goc_res_gr (emit w (EWriteStart r c)) r) as [g ->]. reflexivity.
Qed.

Lemma sess_written_to_rejected w t r c v k :
  cur w = Some t -> validate_write (at_write (set_content w r v) r c) t r = Some k ->
  sess_written_to RC w r c v = Abort k (at_write (set_content w r v) r c).
Proof.
  intros Hc Hv. unfold sess_written_to.
  assert (Hc' : cur (set_content w r v) = Some t) by (destruct v; exact Hc).
  rewrite Hc'. fold (at_write (set_content w r v) r c). rewrite Hv. reflexivity.
Qed.

Lemma sess_write_abort_only w r c v k w' :
  sess_write RC w r c v = Abort k w' -> k = AOverlap \/ k = AHidden ->
  exists t, cur w = Some t /\ validate_write (at_write w r c) t r = Some k.
Proof.
  rewrite sess_write_eq. destruct (cur w) as [t|]; [|discriminate].
  destruct (validate_write (at_write w r c) t r) as [k'|] eqn:Hv.
  - intros H _. inversion H; subst. exists t. split; [reflexivity|exact Hv].
  - destruct (rc_stamp _ _ _ _); [|discriminate]. intros H K. apply record_abort in H. subst k. destruct K; discriminate.
Qed.

(* C07: a cycle is diagnosed at reservation, before make_task_consistent is entered *)
Definition at_require (w : world) (t : task) (c : ocid) : world := get_or_create_task_node (emit w (ERequireStart t c)) t.

Lemma require_cycle_aborts mc w src t c :
  cur w = Some src ->
  fst (add_edge (gr (at_require w t c)) (tn src) (tn t) DReserved) = AErr CycleDetected ->
  require_with OC mc w t c =
  Abort ACycle (set_gr (at_require w t c) (snd (add_edge (gr (at_require w t c)) (tn src) (tn t) DReserved))).
Proof.
  intros Hc He. unfold require_with. fold (at_require w t c).
  unfold reserve_require_dependency.
  assert (Hc' : cur (at_require w t c) = Some src).
  { unfold at_require, get_or_create_task_node. destruct (live _ _); exact Hc. }
  rewrite Hc'. unfold add_dependency.
  destruct (add_edge (gr (at_require w t c)) (tn src) (tn t) DReserved) as [r g'] eqn:E.
  cbn [fst snd] in *. subst r. reflexivity.
Qed.

(* C18: checker errors during validation *)
Lemma check_deps_app mc ds1 ds2 w w1 :
  check_deps RC OC mc ds1 w = Done true w1 ->
  check_deps RC OC mc (ds1 ++ ds2) w = check_deps RC OC mc ds2 w1.
Proof.
  revert w. induction ds1 as [|d tl IH]; intros w H.
  - cbn in H. inversion H. reflexivity.
  - cbn [app]. cbn [check_deps] in *.
    destruct d as [[|t c st|r c st|r c st]|]; try discriminate.
    + unfold bind in *. destruct (mc (emit w (ECheckTaskStart t c st)) t) as [o w2| |]; try discriminate.
      destruct (oc_check (OC c) o st); [|discriminate]. apply IH. exact H.
    + destruct (check_resource_td RC w r c st) as [[| |e] w2]; try discriminate. apply IH. exact H.
    + destruct (check_resource_td RC w r c st) as [[| |e] w2]; try discriminate. apply IH. exact H.
Qed.

Lemma check_resource_td_eq w r c st :
  check_resource_td RC w r c st =
  (rc_check (RC c) (env w) r (get_content w r) st,
   emit (emit w (ECheckResStart r c st)) (ECheckResEnd r c st (rc_check (RC c) (env w) r (get_content w r) st))).
Proof. reflexivity. Qed.

Definition res_dep (d : dep) : option (res * rcid * Z) :=
  match d with DRead r c st | DWrite r c st => Some (r, c, st) | _ => None end.

Lemma check_deps_res mc d r c st tl w :
  res_dep d = Some (r, c, st) ->
  check_deps RC OC mc (Some d :: tl) w =
  let x := rc_check (RC c) (env w) r (get_content w r) st in
  let w1 := emit (emit w (ECheckResStart r c st)) (ECheckResEnd r c st x) in
  match x with Consistent => check_deps RC OC mc tl w1 | Inconsistent => Done false w1 | CErr e => Done false (push_err w1 e) end.
Proof. intros Hd. destruct d; try discriminate; injection Hd as -> -> ->; reflexivity. Qed.

Lemma check_deps_error mc d r c st tl w e :
  res_dep d = Some (r, c, st) ->
  rc_check (RC c) (env w) r (get_content w r) st = CErr e ->
  check_deps RC OC mc (Some d :: tl) w =
  Done false (push_err (emit (emit w (ECheckResStart r c st)) (ECheckResEnd r c st (CErr e))) e).
Proof.
  intros Hd He. rewrite (check_deps_res mc d r c st tl w Hd). cbv zeta. rewrite He. reflexivity.
Qed.

Lemma check_deps_inconsistent mc d r c st tl w :
  res_dep d = Some (r, c, st) ->
  rc_check (RC c) (env w) r (get_content w r) st = Inconsistent ->
  check_deps RC OC mc (Some d :: tl) w =
  Done false (emit (emit w (ECheckResStart r c st)) (ECheckResEnd r c st Inconsistent)).
Proof.
  intros Hd He. rewrite (check_deps_res mc d r c st tl w Hd). cbv zeta. rewrite He. reflexivity.
Qed.

Lemma check_deps_consistent mc d r c st tl w :
  res_dep d = Some (r, c, st) ->
  rc_check (RC c) (env w) r (get_content w r) st = Consistent ->
  check_deps RC OC mc (Some d :: tl) w =
  check_deps RC OC mc tl (emit (emit w (ECheckResStart r c st)) (ECheckResEnd r c st Consistent)).
Proof.
  intros Hd He. rewrite (check_deps_res mc d r c st tl w Hd). cbv zeta. rewrite He. reflexivity.
Qed.

Lemma try_schedule_eq w t r c st :
  try_schedule RC w t r c st =
  let x := rc_check (RC c) (env w) r (get_content w r) st in
  let w2 := emit (emit w (ECheckReadResStart t c st)) (ECheckReadResEnd t c st x) in
  match x with
  | Consistent => w2
  | Inconsistent => queue_add (emit w2 (ESchedTask t)) t
  | CErr e => queue_add (emit (push_err w2 e) (ESchedTask t)) t
  end.
Proof. reflexivity. Qed.

Lemma try_schedule_error w t r c st e :
  rc_check (RC c) (env w) r (get_content w r) st = CErr e ->
  try_schedule RC w t r c st =
  queue_add (emit (push_err (emit (emit w (ECheckReadResStart t c st)) (ECheckReadResEnd t c st (CErr e))) e) (ESchedTask t)) t.
Proof. intros H. rewrite try_schedule_eq. cbv zeta. rewrite H. reflexivity. Qed.

Lemma try_schedule_inconsistent w t r c st :
  rc_check (RC c) (env w) r (get_content w r) st = Inconsistent ->
  try_schedule RC w t r c st =
  queue_add (emit (emit (emit w (ECheckReadResStart t c st)) (ECheckReadResEnd t c st Inconsistent)) (ESchedTask t)) t.
Proof. intros H. rewrite try_schedule_eq. cbv zeta. rewrite H. reflexivity. Qed.

Lemma try_schedule_consistent w t r c st :
  rc_check (RC c) (env w) r (get_content w r) st = Consistent ->
  try_schedule RC w t r c st = emit (emit w (ECheckReadResStart t c st)) (ECheckReadResEnd t c st Consistent).
Proof. intros H. rewrite try_schedule_eq. cbv zeta. rewrite H. reflexivity. Qed.

Lemma queue_add_in w t : In t (queue (queue_add w t)).
Proof. apply In_queue_add. right. reflexivity. Qed.

(* C02 / C19: memoisation, and tasks without output are executed without looking at their dependencies *)
Lemma make_consistent_memo f w t o :
  live (gr w) (tn t) = true -> memN t (consistent w) = true -> get_task_output w t = Some o ->
  make_consistent_td RC OC P (S f) w t = Done o w.
Proof.
  intros Hl Hm Ho. cbn [make_consistent_td]. unfold get_or_create_task_node. rewrite Hl. rewrite Hm, Ho. reflexivity.
Qed.

Lemma make_consistent_no_output f w t :
  live (gr w) (tn t) = true -> memN t (consistent w) = false -> get_task_output w t = None ->
  make_consistent_td RC OC P (S f) w t =
  bind (execute_with RC OC P (require_with OC (make_consistent_td RC OC P f)) w t) (fun o w2 => Done o (mark_consistent w2 t)).
Proof.
  intros Hl Hm Ho. cbn [make_consistent_td]. unfold get_or_create_task_node. rewrite Hl. rewrite Hm, Ho. reflexivity.
Qed.

(* C04: early cut-off *)
Lemma schedule_requirer_cutoff o w n t c st :
  oc_check (OC c) o st = true ->
  schedule_requirer OC o w (n, Some (DRequire t c st)) =
  emit (emit w (ECheckReqTaskStart (un n) c st)) (ECheckReqTaskEnd (un n) c st false).
Proof. intros H. unfold schedule_requirer. cbn [snd fst]. rewrite H. reflexivity. Qed.

Lemma schedule_requirer_schedules o w n t c st :
  oc_check (OC c) o st = false ->
  In (un n) (queue (schedule_requirer OC o w (n, Some (DRequire t c st)))).
Proof. intros H. unfold schedule_requirer. cbn [snd fst]. rewrite H. cbn [negb]. apply queue_add_in. Qed.

End Local.
