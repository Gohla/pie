(* Witnesses, evaluated on the faithful model by vm_compute, of the recorded findings: universal statements that the
   code (and therefore the model) does NOT satisfy.  Each witness is also a case in the corpus replayed on the real code. *)
From Coq Require Import List NArith ZArith.
From PieV Require Import Model.Dag Model.Build Model.Dsl.
Import ListNotations.
Open Scope N_scope.

Definition executed (w : world) : list task :=
  rev (flat_map (fun e => match e with EExecStart t => [t] | _ => [] end) (trace w)).

Definition is_done (r : sres) : bool := match r with RDone _ => true | _ => false end.
Definition all_done (rs : list (list sres)) : bool := forallb is_done (concat rs).
Definition FUEL : nat := 200.
Definition EXACT : rcid := 0.  Definition EQ : ocid := 0.  Definition ALWAYS : ocid := 2.

(* C03 (O4): a top-down build between a change and its bottom-up report re-executes a dependency of a task it did
   not reach; the bottom-up build then schedules nothing and leaves that task stale. *)
Definition tb_O4 : table := [(2, CReq 1 EQ CDone); (1, CRead 1 EXACT CDone)].
Definition h_O4 : list step :=
  [HEdit 1 (Some 1%Z); HSession [SRequire 2]; HEdit 1 (Some 2%Z); HSession [SRequire 1]; HSession [SBottomUp [1]]; HSession [SRequire 2]].
Lemma C03_mixed_refuted :
  executed (snd (dsl_run_history tb_O4 FUEL init_world h_O4)) = [2] /\
  (* the bottom-up build itself executed nothing *)
  executed (snd (dsl_run_history tb_O4 FUEL init_world (firstn 5 h_O4))) = [].
Proof. vm_compute. split; reflexivity. Qed.

(* C08 (O7): the same task required twice with different checkers keeps only the last checker *)
Definition tb_O7 : table := [(0, CReq 1 EQ (CReq 1 ALWAYS CDone)); (1, CRead 0 EXACT CDone)].
Definition h_O7 : list step := [HEdit 0 (Some 1%Z); HSession [SRequire 0]; HEdit 0 (Some 2%Z); HSession [SRequire 0]].
Lemma C08_general_refuted :
  (* after the first build the store holds ONE require dependency of task 0, with the second checker *)
  map snd (get_outgoing_edges (gr (snd (dsl_run_history tb_O7 FUEL init_world (firstn 2 h_O7)))) (tn 0)) = [Some (DRequire 1 ALWAYS 0%Z)] /\
  (* and the changed output of task 1 does not re-execute task 0 *)
  executed (snd (dsl_run_history tb_O7 FUEL init_world h_O7)) = [1].
Proof. vm_compute. split; reflexivity. Qed.

(* C05 "Hence" clause (O6): R requires X requires W; W writes r5; R reads r5.  X drops the require of W but returns the
   same output: the build returns with R a recorded reader of r5 without a path to the recorded writer W. *)
Definition tb_O6 : table :=
  [(0, CReq 1 EQ (CRead 5 EXACT CDone));                                   (* R *)
   (1, CRead 0 EXACT (CIf (CLastEq 2) (CReq 2 ALWAYS (CRet (EConst 7))) (CRet (EConst 7))));   (* X *)
   (2, CWrite 5 EXACT (EConst 3) CDone)].                                   (* W *)
Definition h_O6 : list step := [HEdit 0 (Some 1%Z); HSession [SRequire 0]; HEdit 0 (Some 2%Z); HSession [SRequire 0]].
Lemma C05_final_store_refuted :
  let w := snd (dsl_run_history tb_O6 FUEL init_world h_O6) in
  all_done (fst (dsl_run_history tb_O6 FUEL init_world h_O6)) = true /\
  get_task_writing_to_resource w 5 = Some 2 /\ existsb (N.eqb 0) (get_tasks_reading_from_resource w 5) = true /\
  contains_transitive_task_dependency w 0 2 = Some false.
Proof. vm_compute. repeat split; reflexivity. Qed.

(* C20 (O5a): the writer role moves from T1 to T2 and T2 is built first: spurious "Overlapping write" *)
Definition on0 (view : Z) (th el : code) : code := CRead 0 EXACT (CIf (CLastEq view) th el).
Definition tb_O5a : table := [(1, on0 1 (CWrite 10 EXACT (EConst 5) CDone) CDone); (2, on0 2 (CWrite 10 EXACT (EConst 6) CDone) CDone)].
Lemma C20_dynamic_refuted_overlap :
  List.last (fst (dsl_run_history tb_O5a FUEL init_world [HEdit 0 (Some 0%Z); HSession [SRequire 1]; HEdit 0 (Some 1%Z); HSession [SRequire 2]]))
    [] = [RAbort AOverlap] /\
  (* a from-scratch build of both tasks in the current state succeeds in either order *)
  all_done (fst (dsl_run_history tb_O5a FUEL init_world [HEdit 0 (Some 1%Z); HSession [SRequire 1; SRequire 2]])) = true /\
  all_done (fst (dsl_run_history tb_O5a FUEL init_world [HEdit 0 (Some 1%Z); HSession [SRequire 2; SRequire 1]])) = true.
Proof. vm_compute. repeat split; reflexivity. Qed.

(* C20 (O5a, bottom-up form): GEN writes product 10 while source 0 holds 0, USE then requires GEN and reads it; while the
   source holds 1 GEN writes nothing and USE writes the product itself, without requiring GEN.  After a round trip 0 -> 1 -> 0,
   each change reported to a bottom-up build, no recorded dependency relates the two tasks any more; the build that is told about
   the switch back runs them in the order of their stale ranks, GEN (the new writer) first: spurious "Overlapping write" *)
Definition tb_O5a_bu : table :=
  [(1, on0 1 (CWrite 10 EXACT (EConst 5) (CRet EAcc)) (CRet EAcc));
   (2, on0 1 (CReq 1 0 (CRead 10 EXACT (CRet EAcc))) (CWrite 10 EXACT (EConst 6) (CRet EAcc)))].
Lemma C20_dynamic_refuted_overlap_bottom_up :
  List.last (fst (dsl_run_history tb_O5a_bu FUEL init_world
      [HEdit 0 (Some 0%Z); HSession [SRequire 2]; HEdit 0 (Some 1%Z); HSession [SBottomUp [0]]; HEdit 0 (Some 0%Z); HSession [SBottomUp [0]]]))
    [] = [RAbort AOverlap] /\
  (* the build told about the first switch succeeds *)
  all_done (fst (dsl_run_history tb_O5a_bu FUEL init_world
      [HEdit 0 (Some 0%Z); HSession [SRequire 2]; HEdit 0 (Some 1%Z); HSession [SBottomUp [0]]])) = true /\
  (* a from-scratch build of both tasks in the current state succeeds in either order *)
  all_done (fst (dsl_run_history tb_O5a_bu FUEL init_world [HEdit 0 (Some 0%Z); HSession [SRequire 1; SRequire 2]])) = true /\
  all_done (fst (dsl_run_history tb_O5a_bu FUEL init_world [HEdit 0 (Some 0%Z); HSession [SRequire 2; SRequire 1]])) = true.
Proof. vm_compute. repeat split; reflexivity. Qed.

(* C20 (O5b): the require direction flips and the new requirer is built first: spurious "Cyclic task dependency" *)
Definition tb_O5b : table := [(1, on0 1 (CReq 2 EQ CDone) CDone); (2, on0 2 (CReq 1 EQ CDone) CDone)].
Lemma C20_dynamic_refuted_cycle :
  List.last (fst (dsl_run_history tb_O5b FUEL init_world [HEdit 0 (Some 0%Z); HSession [SRequire 1]; HEdit 0 (Some 1%Z); HSession [SRequire 2]])) []
    = [RAbort ACycle] /\
  forallb (fun r => match r with RDone _ => true | _ => false end)
    (List.last (fst (dsl_run_history tb_O5b FUEL init_world [HEdit 0 (Some 1%Z); HSession [SRequire 2; SRequire 1]])) []) = true /\
  forallb (fun r => match r with RDone _ => true | _ => false end)
    (List.last (fst (dsl_run_history tb_O5b FUEL init_world [HEdit 0 (Some 1%Z); HSession [SRequire 1; SRequire 2]])) []) = true.
Proof. vm_compute. repeat split; reflexivity. Qed.

(* C20 (O5c): a stale reader edge and a new writer built first: spurious "Hidden dependency" *)
Definition tb_O5c : table := [(3, on0 1 (CRead 10 EXACT CDone) CDone); (1, on0 2 (CWrite 10 EXACT (EConst 7) CDone) CDone)].
Lemma C20_dynamic_refuted_hidden :
  List.last (fst (dsl_run_history tb_O5c FUEL init_world [HEdit 0 (Some 0%Z); HSession [SRequire 3]; HEdit 0 (Some 1%Z); HSession [SRequire 1]])) []
    = [RAbort AHidden] /\
  forallb (fun r => match r with RDone _ => true | _ => false end)
    (List.last (fst (dsl_run_history tb_O5c FUEL init_world [HEdit 0 (Some 1%Z); HSession [SRequire 1; SRequire 3]])) []) = true /\
  forallb (fun r => match r with RDone _ => true | _ => false end)
    (List.last (fst (dsl_run_history tb_O5c FUEL init_world [HEdit 0 (Some 1%Z); HSession [SRequire 3; SRequire 1]])) []) = true.
Proof. vm_compute. repeat split; reflexivity. Qed.

(* C19 (O13): a diagnosed cycle A -> B -> A is repaired (A stops requiring B); requiring B first then aborts with a spurious
   "Cyclic task dependency": the aborted A still holds its reserved edge A -> B.  From-scratch builds succeed in either order. *)
Definition tb_O13 : table := [(1, on0 2 (CReq 2 EQ CDone) CDone); (2, CReq 1 EQ CDone)].
Lemma C19_spurious_cycle_after_abort_refuted :
  fst (dsl_run_history tb_O13 FUEL init_world [HEdit 0 (Some 1%Z); HSession [SRequire 1]; HEdit 0 (Some 2%Z); HSession [SRequire 2]])
    = [[]; [RAbort ACycle]; []; [RAbort ACycle]] /\
  all_done (fst (dsl_run_history tb_O13 FUEL init_world [HEdit 0 (Some 2%Z); HSession [SRequire 2; SRequire 1]])) = true /\
  all_done (fst (dsl_run_history tb_O13 FUEL init_world [HEdit 0 (Some 2%Z); HSession [SRequire 1; SRequire 2]])) = true.
Proof. vm_compute. repeat split; reflexivity. Qed.

(* observation (not a finding: the session contract is broken): a resource changes while a Session is alive.  One session
   requires Read(0) top-down; its source r50 and the marker r51 change; both are reported to a bottom-up build of that session.
   Top(2), scheduled through the marker, requires Read (answered from the session's consistent set with the OLD output) and then
   Lower(1) -> Read, which executes Read nested; Read's new output reschedules the still executing Top, which runs a SECOND time.
   The end state is right (C03), the price is a double execution inside one bottom-up build. *)
Definition tb_mid : table :=
  [(0, CRead 50 EXACT CDone); (1, CReq 0 EQ CDone); (2, CRead 51 EXACT (CIf (CLastEq 0) CDone (CReq 0 EQ (CReq 1 EQ CDone))))].
Definition h_mid : list step := [HEdit 50 (Some 1%Z); HSession [SRequire 1; SRequire 2]].
Definition m_mid : list mop := [MSop (SRequire 0); MEdit 50 (Some 2%Z); MEdit 51 (Some 1%Z); MSop (SBottomUp [50; 51])].
Lemma mid_session_edit_double_execution :
  let w := snd (dsl_run_history tb_mid FUEL init_world h_mid) in
  let r := dsl_run_msession tb_mid FUEL (new_session w) m_mid in
  forallb is_done (fst r) = true /\ executed (snd r) = [2; 0; 1; 2].
Proof. vm_compute. split; reflexivity. Qed.
