(* Reachability in the DAG model and acyclicity from WF; Search, one invariant for the five searches (the two depth-first searches
   of add_edge, the walk of contains_transitive_edge, the two descendants walks); and C11: every query of the DAG answers
   according to the true edge set (the kids lists of a well-formed graph).  The searches of add_edge and
   contains_transitive_edge themselves: DagFuel.v. *)
From Coq Require Import List NArith Bool Lia Sorted.
From PieV Require Import Model.Dag Proofs.DagLib Proofs.DagWF.
Import ListNotations.
Open Scope N_scope.

Section Path.
Context {ED : Type}.
Implicit Types g : dag ED.

Inductive path g : node -> node -> Prop :=
| path1 u v : In v (kids_of g u) -> path g u v
| pathS u w v : In w (kids_of g u) -> path g w v -> path g u v.

Lemma path_trans g u w v : path g u w -> path g w v -> path g u v.
Proof. intros P1 P2. induction P1; [eapply pathS; eassumption|]. eapply pathS; [eassumption|]. apply IHP1. exact P2. Qed.
Lemma path_snoc g u w v : path g u w -> In v (kids_of g w) -> path g u v.
Proof. intros P X. eapply path_trans; [exact P|]. apply path1. exact X. Qed.

Lemma path_rank g u v : WF g -> path g u v -> rank_of g u < rank_of g v.
Proof.
  intros W P. induction P as [u v X|u w v X P IH].
  - apply (wf_topo g W). exact X.
  - pose proof (wf_topo g W u w X). lia.
Qed.

Theorem WF_acyclic g u : WF g -> ~ path g u u.
Proof. intros W P. apply (path_rank g u u W) in P. lia. Qed.

Lemma path_live g u v : WF g -> path g u v -> live g u = true /\ live g v = true.
Proof.
  intros W P. induction P as [u v X|u w v X P IH].
  - apply (wf_closed g W). exact X.
  - destruct (wf_closed g W u w X). tauto.
Qed.

Lemma path_ext g g' u v : (forall m, kids_of g' m = kids_of g m) -> path g u v -> path g' u v.
Proof.
  intros K P. induction P as [u v X|u w v X P IH].
  - apply path1. rewrite K. exact X.
  - eapply pathS; [rewrite K; exact X|exact IH].
Qed.
Lemma path_inv g (S : node -> Prop) : (forall x c, S x -> In c (kids_of g x) -> S c) ->
  forall u v, path g u v -> S u -> exists w, S w /\ In v (kids_of g w).
Proof.
  intros C u v P. induction P as [u v X|u w v X P IH]; intros Su; [exists u; split; assumption|]. apply IH. exact (C u w Su X).
Qed.
Definition from g (root x : node) : Prop := x = root \/ path g root x.
Definition into g (root x : node) : Prop := x = root \/ path g x root.
Lemma from_step g root x c : from g root x -> In c (kids_of g x) -> from g root c.
Proof. intros [->|P] X; right; [apply path1; exact X|eapply path_snoc; eassumption]. Qed.
Lemma into_step g root x c : into g root x -> In x (kids_of g c) -> into g root c.
Proof. intros [->|P] X; right; [apply path1; exact X|eapply pathS; eassumption]. Qed.

End Path.

Section Search.
(* One invariant for the five searches of the model.  [pend] holds the nodes still to be looked at, [vis] those looked at.
   All of them satisfy [ok] and [R], a property that steps along [next] from [ok] nodes keep; every [ok] successor of a node looked at is
   looked at itself, pending, or in [pre] (looked at by an earlier search); and so is every node of [init]. *)
Variables (next : node -> list node) (ok : node -> bool) (R : node -> Prop) (pre init : list node).
Hypothesis R_step : forall x c, R x -> ok x = true -> In c (next x) -> R c.

Definition Search (pend vis : list node) : Prop :=
  (forall x, In x pend \/ In x vis -> R x /\ ok x = true) /\
  (forall x, In x vis -> forall c, In c (next x) -> ok c = true -> In c vis \/ In c pend \/ In c pre) /\
  (forall c, In c init -> In c vis \/ In c pend).

Lemma search_init pend : (forall x, In x init -> In x pend) -> (forall x, In x pend -> R x /\ ok x = true) -> Search pend [].
Proof. intros Sub H. split; [|split]; [intros x [X|[]]; apply H; exact X|intros x []|intros c C; right; apply Sub; exact C]. Qed.

Lemma search_drop pend pend' vis m :
  Search pend vis -> In m vis -> (forall x, In x pend' -> In x pend) -> (forall x, In x pend -> x = m \/ In x pend') ->
  Search pend' vis.
Proof.
  intros [I1 [I2 I3]] M Sub Keep. split; [|split].
  - intros x [X|X]; apply I1; [left; apply Sub; exact X|right; exact X].
  - intros x X c C O. destruct (I2 x X c C O) as [Y|[Y|Y]]; [left; exact Y| |right; right; exact Y].
    destruct (Keep c Y) as [->|Z]; [left; exact M|right; left; exact Z].
  - intros c C. destruct (I3 c C) as [Y|Y]; [left; exact Y|]. destruct (Keep c Y) as [->|Z]; [left; exact M|right; exact Z].
Qed.

(* [m] leaves [pend] and is looked at: [new] holds its [ok] successors, except perhaps some that were looked at already *)
Lemma search_visit pend pend' vis m new :
  Search pend vis -> In m pend -> (forall x, In x pend' -> In x pend) -> (forall x, In x pend -> x = m \/ In x pend') ->
  (forall c, In c new -> In c (next m) /\ ok c = true) ->
  (forall c, In c (next m) -> ok c = true -> In c new \/ In c (m :: vis) \/ In c pre) ->
  Search (new ++ pend') (m :: vis).
Proof.
  intros [I1 [I2 I3]] M Sub Keep Snd Cmp.
  assert (Keep' : forall c, In c pend -> In c (m :: vis) \/ In c (new ++ pend')).
  { intros c Y. destruct (Keep c Y) as [->|Z]; [left; left; reflexivity|right; apply in_or_app; right; exact Z]. }
  split; [|split].
  - intros x [X|[<-|X]]; [|apply I1; left; exact M|apply I1; right; exact X].
    apply in_app_or in X. destruct X as [X|X]; [|apply I1; left; apply Sub; exact X].
    destruct (Snd x X) as [A B]. split; [|exact B]. destruct (I1 m (or_introl M)) as [Rm Om]. exact (R_step m x Rm Om A).
  - intros x [<-|X] c C O.
    + destruct (Cmp c C O) as [Y|[Y|Y]]; [right; left; apply in_or_app; left; exact Y|left; exact Y|right; right; exact Y].
    + destruct (I2 x X c C O) as [Y|[Y|Y]]; [left; right; exact Y| |right; right; exact Y].
      destruct (Keep' c Y) as [Z|Z]; [left; exact Z|right; left; exact Z].
  - intros c C. destruct (I3 c C) as [Y|Y]; [left; right; exact Y|exact (Keep' c Y)].
Qed.

(* the step of a depth-first search that marks a node when it pops it: the successors not in [skip] are pushed *)
Lemma search_scan st vis m skip :
  Search (m :: st) vis -> (forall c, In c skip -> In c (m :: vis) \/ In c pre) ->
  Search (rev (filter (fun c => negb (memN c skip) && ok c) (next m)) ++ st) (m :: vis).
Proof.
  intros S Skip. apply (search_visit (m :: st) st vis m _ S (or_introl eq_refl)); [intros x X; right; exact X|intros x [<-|X]; [left; reflexivity|right; exact X]| |].
  - intros c C. apply in_rev, filter_In in C. destruct C as [C O]. apply andb_true_iff in O. split; [exact C|exact (proj2 O)].
  - intros c C O. destruct (memN c skip) eqn:M; [right; apply Skip, memN_In; exact M|].
    left. apply -> in_rev. apply filter_In. split; [exact C|]. rewrite M, O. reflexivity.
Qed.

Lemma search_push pend pend' vis m new :
  Search pend vis -> In m pend -> (forall x, In x pend' -> In x pend) -> (forall x, In x pend -> x = m \/ In x pend') ->
  (forall c, In c new <-> In c (next m)) -> (forall c, ok c = true) -> Search (new ++ pend') (m :: vis).
Proof.
  intros S M Sub Keep New Ok. apply (search_visit pend pend' vis m new S M Sub Keep).
  - intros c C. split; [apply New; exact C|apply Ok].
  - intros c C _. left. apply New. exact C.
Qed.
End Search.

(* a search of a graph with more edges is a search of the graph with fewer *)
Lemma search_sub next next' (ok ok' : node -> bool) R pre init pend vis :
  (forall c, ok' c = ok c) -> (forall x c, In c (next' x) -> In c (next x)) ->
  Search next ok R pre init pend vis -> Search next' ok' R pre init pend vis.
Proof.
  intros O N [I1 [I2 I3]]. split; [|split; [|exact I3]].
  - intros x X. rewrite O. exact (I1 x X).
  - intros x X c C Oc. rewrite O in Oc. exact (I2 x X c (N x c C) Oc).
Qed.

Section Dfs.
Context {ED : Type}.
Implicit Types g : dag ED.

Lemma scan_fwd_shape g ub vis cs : forall st st', scan_fwd g ub vis cs st = Some st' ->
  st' = rev (filter (fun c => negb (memN c vis) && N.ltb (rank_of g c) ub) cs) ++ st.
Proof.
  induction cs as [|c tl IH]; intros st st' H; cbn in H; [inversion H; reflexivity|].
  destruct (N.eqb (rank_of g c) ub); [discriminate|]. cbn [filter].
  destruct (negb (memN c vis) && N.ltb (rank_of g c) ub).
  - rewrite (IH _ _ H). cbn [rev]. rewrite <- app_assoc. reflexivity.
  - apply IH. exact H.
Qed.
Lemma scan_bwd_shape g lb vis ps : forall st,
  scan_bwd g lb vis ps st = rev (filter (fun c => negb (memN c vis) && N.ltb lb (rank_of g c)) ps) ++ st.
Proof.
  induction ps as [|c tl IH]; intros st; cbn [scan_bwd filter]; [reflexivity|].
  destruct (negb (memN c vis) && N.ltb lb (rank_of g c)).
  - rewrite IH. cbn [rev]. rewrite <- app_assoc. reflexivity.
  - apply IH.
Qed.


Lemma scan_fwd_some g ub vis cs : forall st st', scan_fwd g ub vis cs st = Some st' -> forall c, In c cs -> rank_of g c <> ub.
Proof.
  induction cs as [|c tl IH]; intros st st' H c0 X; [destruct X|]. cbn in H.
  destruct (N.eqb_spec (rank_of g c) ub) as [|Hne]; [discriminate|].
  destruct X as [<-|X]; [exact Hne|]. destruct (negb (memN c vis) && N.ltb (rank_of g c) ub); exact (IH _ _ H c0 X).
Qed.

Lemma scan_fwd_none g ub vis cs : forall st,
  scan_fwd g ub vis cs st = None -> exists c, In c cs /\ rank_of g c = ub.
Proof.
  induction cs as [|c tl IH]; intros st H; cbn in H; [discriminate|].
  destruct (N.eqb_spec (rank_of g c) ub) as [Heq|Hne]; [exists c; split; [left; reflexivity|exact Heq]|].
  destruct (negb (memN c vis) && N.ltb (rank_of g c) ub); destruct (IH _ H) as [c0 [X Y]]; exists c0; (split; [right; exact X|exact Y]).
Qed.

(* forward, from [root] below rank [ub]; no successor of a node looked at has rank [ub].  [R] is what the nodes found have in
   common; add_edge searches the graph that has the new edge already, and finds nodes reached in the graph without it *)
Definition FInv g ub root (R : node -> Prop) (stack res : list node) : Prop :=
  Search (kids_of g) (fun c => N.ltb (rank_of g c) ub) R [] [root] stack res /\
  (forall x, In x res -> forall c, In c (kids_of g x) -> rank_of g c <> ub).

(* backward, from [root] above rank [lb], except the nodes of [cf] *)
Definition BInv g lb root (R : node -> Prop) (cf stack res : list node) : Prop :=
  Search (pars_of g) (fun c => N.ltb lb (rank_of g c)) R cf [root] stack res.

End Dfs.

Section Queries.
Context {ED : Type}.
Implicit Types g : dag ED.

Theorem contains_edge_spec g u v : WF g -> (contains_edge g u v = true <-> In v (kids_of g u)).
Proof.
  intros W. unfold contains_edge.
  destruct (live g u) eqn:Lu; cbn [negb orb].
  - destruct (live g v) eqn:Lv; cbn [negb orb].
    + destruct (get_edata g u v) eqn:X.
      * split; [intros _|reflexivity]. apply (wf_edata g W). congruence.
      * split; [discriminate|]. intros Y. apply (wf_edata g W) in Y. congruence.
    + split; [discriminate|]. intros Y. destruct (wf_closed g W u v Y). congruence.
  - split; [discriminate|]. intros Y. rewrite (kids_of_dead g u Lu) in Y. destruct Y.
Qed.

Theorem outgoing_spec g u : WF g ->
  map fst (get_outgoing_edges g u) = kids_of g u /\
  forall v e, In (v, e) (get_outgoing_edges g u) -> e = get_edata g u v /\ e <> None.
Proof.
  intros W. unfold get_outgoing_edges. split; [rewrite map_map; cbn; apply map_id|].
  intros v e X. apply in_map_iff in X. destruct X as [c [E Hc]]. inversion E; subst. split; [reflexivity|].
  apply (wf_edata g W). exact Hc.
Qed.
Theorem incoming_spec g v : WF g ->
  map fst (get_incoming_edges g v) = pars_of g v /\
  forall u e, In (u, e) (get_incoming_edges g v) -> e = get_edata g u v /\ e <> None.
Proof.
  intros W. unfold get_incoming_edges. split; [rewrite map_map; cbn; apply map_id|].
  intros u e X. apply in_map_iff in X. destruct X as [c [E Hc]]. inversion E; subst. split; [reflexivity|].
  apply (wf_edata g W). apply (wf_sym g W). exact Hc.
Qed.
Theorem adjacency_symmetric g u v : WF g -> (In v (map fst (get_outgoing_edges g u)) <-> In u (map fst (get_incoming_edges g v))).
Proof. intros W. rewrite (proj1 (outgoing_spec g u W)), (proj1 (incoming_spec g v W)). apply (wf_sym g W). Qed.

Theorem topo_cmp_spec g a b : live g a = true -> live g b = true -> topo_cmp g a b = Some (N.compare (rank_of g a) (rank_of g b)).
Proof. unfold live, topo_cmp, rank_of. destruct (get_info g a); [|discriminate]. destruct (get_info g b); [|discriminate]. reflexivity. Qed.


Definition CInv g src dst (stack visited : list node) : Prop :=
  Search (kids_of g) (fun _ => true) (from g src) [] [src] stack visited /\
  (forall x, In x visited -> ~ In dst (kids_of g x)).

Definition RInv g n (pend vis : list node) : Prop :=
  Search (kids_of g) (fun _ => true) (path g n) [] (kids_of g n) pend vis /\ NoDup vis.

Lemma rinv_init g n l : (forall x, In x l <-> In x (kids_of g n)) -> RInv g n l [].
Proof.
  intros H. split; [|constructor]. apply search_init; [intros x; apply H|].
  intros x X. split; [apply path1; apply H; exact X|reflexivity].
Qed.

Lemma rinv_drop g n pend pend' vis m :
  RInv g n pend vis -> In m vis -> (forall x, In x pend' -> In x pend) -> (forall x, In x pend -> x = m \/ In x pend') ->
  RInv g n pend' vis.
Proof. intros [S D] M Sub Keep. split; [exact (search_drop _ _ _ _ _ pend pend' vis m S M Sub Keep)|exact D]. Qed.

Lemma rinv_visit g n pend pend' vis m new :
  RInv g n pend vis -> In m pend -> ~ In m vis -> (forall x, In x pend' -> In x pend) -> (forall x, In x pend -> x = m \/ In x pend') ->
  (forall x, In x new <-> In x (kids_of g m)) ->
  RInv g n (new ++ pend') (m :: vis).
Proof.
  intros [S D] M NM Sub Keep New. split; [|constructor; assumption].
  exact (search_push _ _ _ _ _ (fun x c A _ => path_snoc g n x c A) pend pend' vis m new S M Sub Keep New (fun _ => eq_refl)).
Qed.

Lemma rinv_done g n vis : RInv g n [] vis -> forall x, In x vis <-> path g n x.
Proof.
  intros [[I1 [I2 I3]] _] x. split; [intros X; apply I1; right; exact X|]. intros P.
  assert (C : forall a c, a = n \/ In a vis -> In c (kids_of g a) -> In c vis).
  { intros a c [->|A] X; [destruct (I3 c X) as [Y|[]]|destruct (I2 a A c X eq_refl) as [Y|[[]|[]]]]; exact Y. }
  destruct (path_inv g (fun a => a = n \/ In a vis)) with (u := n) (v := x) as [w [Hw Hx]]; [|exact P|left; reflexivity|exact (C w x Hw Hx)].
  intros a c A X. right. exact (C a c A X).
Qed.

Lemma desc_unsorted_loop_spec fuel g n : forall stack visited acc l,
  RInv g n stack visited -> map snd acc = visited -> (forall r x, In (r, x) acc -> r = rank_of g x) ->
  desc_unsorted_loop fuel g stack visited acc = Some l ->
  NoDup (map snd l) /\ (forall x, In x (map snd l) <-> path g n x) /\ (forall r x, In (r, x) l -> r = rank_of g x).
Proof.
  induction fuel as [|f IH]; intros stack visited acc l I Hacc Hr H; cbn [desc_unsorted_loop] in H; [discriminate|].
  destruct stack as [|k st].
  - inversion H; subst l. rewrite map_rev, Hacc. split; [apply NoDup_rev; apply I|]. split.
    + intros x. rewrite <- in_rev. apply rinv_done. exact I.
    + intros r x X. apply in_rev in X. apply Hr. exact X.
  - assert (Keep : forall x, In x (k :: st) -> x = k \/ In x st) by (intros x [<-|X]; tauto).
    destruct (memN k visited) eqn:M.
    + apply (IH st visited acc l); try assumption. apply memN_In in M.
      apply (rinv_drop g n (k :: st) st visited k I M); [intros x X; right; exact X|exact Keep].
    + apply memN_false in M.
      apply (IH (rev (kids_of g k) ++ st) (k :: visited) ((rank_of g k, k) :: acc) l); try assumption.
      * apply (rinv_visit g n (k :: st) st visited k _ I (or_introl eq_refl) M); [intros x X; right; exact X|exact Keep|].
        intros x. symmetry. apply in_rev.
      * cbn. f_equal. exact Hacc.
      * intros r x [X|X]; [inversion X; reflexivity|apply Hr; exact X].
Qed.

Theorem descendants_unsorted_spec g n l :
  descendants_unsorted g n = AOk l ->
  NoDup (map snd l) /\ (forall x, In x (map snd l) <-> path g n x) /\ (forall r x, In (r, x) l -> r = rank_of g x).
Proof.
  unfold descendants_unsorted. destruct (live g n); cbn [negb]; [|discriminate].
  destruct (desc_unsorted_loop (walk_fuel g) g (rev (kids_of g n)) [] []) as [l0|] eqn:X; [|discriminate].
  intros H. inversion H; subst. eapply desc_unsorted_loop_spec; [| | |exact X].
  - apply rinv_init. intros x. symmetry. apply in_rev.
  - reflexivity.
  - intros r x [].
Qed.

Lemma heap_min_spec g : forall l best,
  In (heap_min g best l) (best :: l) /\ forall x, In x (best :: l) -> rank_of g (heap_min g best l) <= rank_of g x.
Proof.
  induction l as [|y tl IH]; intros best; cbn [heap_min].
  - split; [left; reflexivity|]. intros x [<-|[]]. lia.
  - destruct (N.ltb_spec (rank_of g y) (rank_of g best)) as [Hlt|Hge].
    + destruct (IH y) as [A B]. split; [destruct A as [A|A]; [right; left; exact A|right; right; exact A]|].
      intros x [<-|[<-|X]]; [pose proof (B y (or_introl eq_refl)); lia|apply B; left; reflexivity|apply B; right; exact X].
    + destruct (IH best) as [A B]. split; [destruct A as [A|A]; [left; exact A|right; right; exact A]|].
      intros x [<-|[<-|X]]; [apply B; left; reflexivity|pose proof (B best (or_introl eq_refl)); lia|apply B; right; exact X].
Qed.
Lemma remove_first_in x m l : In x (remove_first m l) -> In x l.
Proof. induction l as [|y tl IH]; cbn; [intros []|]. destruct (N.eqb m y); [intros X; right; exact X|]. intros [X|X]; [left; exact X|right; apply IH; exact X]. Qed.
Lemma remove_first_keep x m l : In x l -> x = m \/ In x (remove_first m l).
Proof.
  induction l as [|y tl IH]; cbn; [intros []|]. destruct (N.eqb_spec m y) as [->|Hne].
  - intros [X|X]; [left; symmetry; exact X|right; exact X].
  - intros [X|X]; [right; left; exact X|]. destruct (IH X) as [Y|Y]; [left; exact Y|right; right; exact Y].
Qed.

Lemma desc_sorted_loop_spec fuel g n : WF g -> forall queue visited l,
  RInv g n queue visited -> (forall y q, In y visited -> In q queue -> rank_of g y <= rank_of g q) ->
  StronglySorted (fun a b => rank_of g b < rank_of g a) visited ->
  desc_sorted_loop fuel g queue visited visited = Some l ->
  NoDup l /\ (forall x, In x l <-> path g n x) /\ StronglySorted (fun a b => rank_of g a < rank_of g b) l.
Proof.
  intros W. induction fuel as [|f IH]; intros queue visited l I I5 Hs H; cbn [desc_sorted_loop] in H; [discriminate|].
  destruct queue as [|q0 qtl].
  - inversion H; subst l. split; [apply NoDup_rev; apply I|]. split.
    + intros x. rewrite <- in_rev. apply rinv_done. exact I.
    + (* reversing a strictly descending list *)
      clear -Hs. induction visited as [|a tl IHv]; cbn; [constructor|].
      inversion Hs as [|? ? Hs' Ha]; subst. apply ssorted_snoc; [apply IHv; exact Hs'|].
      intros z Z. apply in_rev in Z. rewrite Forall_forall in Ha. apply Ha. exact Z.
  - set (m := heap_min g q0 qtl) in *. set (queue' := remove_first m (q0 :: qtl)) in *.
    destruct (heap_min_spec g qtl q0) as [Hm Hmin]. fold m in Hm, Hmin.
    assert (Sub : forall x, In x queue' -> In x (q0 :: qtl)) by (intros x; apply remove_first_in).
    assert (Keep : forall x, In x (q0 :: qtl) -> x = m \/ In x queue') by (intros x; apply remove_first_keep).
    destruct (memN m visited) eqn:M.
    + apply (IH queue' visited l); try assumption.
      * apply memN_In in M. exact (rinv_drop g n _ queue' visited m I M Sub Keep).
      * intros y q Y Q. apply I5; [exact Y|apply Sub; exact Q].
    + apply memN_false in M.
      assert (Live : forall x, In x (q0 :: qtl) \/ In x visited -> live g x = true).
      { intros x X. apply (path_live g n x W). apply I. exact X. }
      assert (Strict : forall y, In y visited -> rank_of g y < rank_of g m).
      { intros y Y. pose proof (I5 y m Y Hm) as Le. assert (rank_of g y <> rank_of g m); [|lia].
        intros E. apply M. rewrite <- (wf_inj g W y m (Live y (or_intror Y)) (Live m (or_introl Hm)) E). exact Y. }
      apply (IH (kids_of g m ++ queue') (m :: visited) l).
      * apply (rinv_visit g n _ queue' visited m _ I Hm M Sub Keep). intros x. reflexivity.
      * intros y q [<-|Y] Q; apply in_app_or in Q; destruct Q as [Q|Q].
        -- pose proof (wf_topo g W m q Q). lia.
        -- apply Hmin. apply Sub. exact Q.
        -- pose proof (wf_topo g W m q Q). pose proof (Strict y Y). lia.
        -- apply I5; [exact Y|apply Sub; exact Q].
      * constructor; [exact Hs|]. apply Forall_forall. exact Strict.
      * exact H.
Qed.

Theorem descendants_spec g n l :
  WF g -> descendants g n = AOk l ->
  NoDup l /\ (forall x, In x l <-> path g n x) /\ StronglySorted (fun a b => rank_of g a < rank_of g b) l.
Proof.
  intros W. unfold descendants. destruct (live g n); cbn [negb]; [|discriminate].
  destruct (desc_sorted_loop (walk_fuel g) g (kids_of g n) [] []) as [l0|] eqn:X; [|discriminate].
  intros H. inversion H; subst. eapply (desc_sorted_loop_spec _ g n W); [| | |exact X].
  - apply rinv_init. intros x. reflexivity.
  - intros y q [].
  - constructor.
Qed.

End Queries.
