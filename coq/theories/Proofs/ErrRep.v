(* C18, global form of "a checker error during validation is never swallowed": in EVERY session (top-down requires, bottom-up
   builds, any mix, completed or aborted, from any store, for all programs and checkers), every dependency-check end event that
   carries a checker error has its error among the session's dependency_check_errors.
   The language of session streams says more (BuJust.follows): the reported errors are exactly those the events of the stream carry. *)
From Coq Require Import List NArith ZArith Bool.
From PieV Require Import Model.Build Proofs.BuJust Proofs.TdForward.
Import ListNotations.
Open Scope N_scope.

Definition errev (e : event) : option Z :=
  match e with ECheckResEnd _ _ _ (CErr x) | ECheckReadResEnd _ _ _ (CErr x) => Some x | _ => None end.
Definition R (w : world) : Prop := forall ev x, In ev (trace w) -> errev ev = Some x -> In x (errs w).

Lemma push_err_R w x : R w -> R (push_err w x).
Proof. intros H ev y Hin He. right. eapply H; eassumption. Qed.
(* the two-step pattern of the code: emit the end event carrying the error, then push the error *)
Lemma err_R w ev x : errev ev = Some x -> R w -> R (push_err (emit w ev) x).
Proof. intros He H ev' y [<-|Hin] He'; [left; congruence|right; eapply H; eassumption]. Qed.

Lemma errev_raised e x : errev e = Some x -> raised e = [x].
Proof. destruct e; try discriminate; destruct result; intros H; inversion H; reflexivity. Qed.
Lemma S_R w w' : R w -> Sess w w' -> R w'.
Proof.
  intros H [seg [[[A1 [_ A3]] _ _] _]] ev x Hin He. rewrite A3. apply in_or_app. rewrite A1 in Hin. apply in_app_or in Hin.
  destruct Hin as [Hin|Hin]; [left|right; exact (H ev x Hin He)].
  apply in_flat_map. exists ev. split; [exact Hin|]. rewrite (errev_raised ev x He). left. reflexivity.
Qed.

Section ER.
Variable RC : rcid -> rchecker.
Variable OC : ocid -> ochecker.
Variable P : task -> prog.
Variable always : ocid.

Theorem session_errors_reported fuel w ops :
  let w' := snd (run_session RC OC P always fuel (new_session w) ops) in
  forall ev x, In ev (trace w') -> errev ev = Some x -> In x (errs w').
Proof. apply (S_R (new_session w)); [intros ev x []|apply session_lang]. Qed.

End ER.
