(* Basic facts about the DAG model: early rejections leave the graph untouched. *)
From Coq Require Import List NArith Bool.
From PieV Require Import Model.Dag.
Import ListNotations.
Open Scope N_scope.

Section Basics.
Context {E : Type}.
Implicit Types g : dag E.

Lemma add_edge_missing_noop g s d e :
  live g s = false \/ live g d = false -> add_edge g s d e = (AErr NodeMissing, g).
Proof.
  intros H. unfold add_edge.
  destruct H as [H|H]; rewrite H; cbn [negb orb]; [reflexivity|].
  rewrite orb_true_r. reflexivity.
Qed.

Lemma add_edge_selfloop_noop g s e :
  live g s = true -> add_edge g s s e = (AErr CycleDetected, g).
Proof.
  intros H. unfold add_edge. rewrite H. cbn [negb orb]. rewrite N.eqb_refl. reflexivity.
Qed.

End Basics.
