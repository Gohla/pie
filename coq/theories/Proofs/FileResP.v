(* C13: stamp routes agree; untouched => consistent; a differing observed aspect => inconsistent; stamp_reader leaves the reader
   at the start; open_write creates/truncates files and refuses directories.  For all path states. *)
From Coq Require Import List NArith Bool.
From PieV Require Import Model.FileRes.
From PieV Require Proofs.CheckersP.
Import ListNotations.
Open Scope N_scope.

Lemma differs_decides {A} (eqb : A -> A -> bool) : (forall x y, eqb x y = true <-> x = y) -> forall a b,
  negb (eqb a b) = true <-> b <> a.
Proof.
  intros spec a b. rewrite negb_true_iff, <- not_true_iff_false, spec. split; intros X E; apply X; symmetry; exact E.
Qed.

Section P.
Variable H : Type.
Variable sha : bytes -> H.
Variable eqH : H -> H -> bool.
Hypothesis eqH_spec : forall a b, eqH a b = true <-> a = b.
Hypothesis sha_inj : forall a b, sha a = sha b -> a = b.      (* collision freeness of SHA-256: assumed *)

Lemma optN_eqb_spec a b : optN_eqb a b = true <-> a = b.
Proof. exact (CheckersP.eq_opt_spec N.eqb N.eqb_eq a b). Qed.
Lemma optH_eqb_spec a b : optH_eqb H eqH a b = true <-> a = b.
Proof. exact (CheckersP.eq_opt_spec eqH eqH_spec a b). Qed.

(* the routes: from the path, from a fresh reader, from a just-used writer (in the state the writer left) *)
Theorem routes_agree_reader s :
  ex_stamp s = ex_stamp_reader (open_read s) /\
  mo_stamp s = mo_stamp_reader (open_read s) /\
  ha_stamp H sha s = fst (ha_stamp_reader H sha s (open_read s)).
Proof. destruct s; cbn; repeat split; reflexivity. Qed.

Theorem routes_agree_writer s b now s' :
  open_write s now = Some s' ->
  let f := write_bytes s' b now in
  ex_stamp_writer f = ex_stamp f /\ mo_stamp_writer f = mo_stamp f /\ ha_stamp_writer H sha f = ha_stamp H sha f.
Proof.
  destruct s; cbn; intros X; inversion X; subst; cbn; repeat split; reflexivity.
Qed.

Theorem untouched_consistent s :
  ex_check s (ex_stamp s) = false /\ mo_check s (mo_stamp s) = false /\ ha_check H sha eqH s (ha_stamp H sha s) = false.
Proof.
  unfold ex_check, mo_check, ha_check. rewrite !negb_false_iff. split; [apply eqb_reflx|].
  split; [apply optN_eqb_spec; reflexivity|apply optH_eqb_spec; reflexivity].
Qed.

Theorem exists_decides s1 s2 : ex_check s2 (ex_stamp s1) = true <-> p_exists s1 <> p_exists s2.
Proof. exact (differs_decides Bool.eqb eqb_true_iff (p_exists s2) (p_exists s1)). Qed.
Theorem modified_decides s1 s2 : mo_check s2 (mo_stamp s1) = true <-> p_modified s1 <> p_modified s2.
Proof. exact (differs_decides optN_eqb optN_eqb_spec (p_modified s2) (p_modified s1)). Qed.
Theorem hash_decides s1 s2 : ha_check H sha eqH s2 (ha_stamp H sha s1) = true <-> ha_stamp H sha s1 <> ha_stamp H sha s2.
Proof. exact (differs_decides (optH_eqb H eqH) optH_eqb_spec (ha_stamp H sha s2) (ha_stamp H sha s1)). Qed.

Theorem hash_file_detects c1 m1 c2 m2 : ha_check H sha eqH (PFile c2 m2) (ha_stamp H sha (PFile c1 m1)) = true <-> c1 <> c2.
Proof.
  rewrite hash_decides. cbn. split.
  - intros X E. subst. apply X. reflexivity.
  - intros X E. inversion E as [E']. apply sha_inj in E'. congruence.
Qed.
Theorem hash_exists_detects s1 s2 : p_exists s1 <> p_exists s2 -> ha_check H sha eqH s2 (ha_stamp H sha s1) = true.
Proof. intros X. apply hash_decides. destruct s1, s2; cbn in *; try congruence; discriminate. Qed.

Theorem reader_rewound c m :
  reader_rest (snd (ha_stamp_reader H sha (PFile c m) (open_read (PFile c m)))) = c /\
  reader_rest (open_read (PFile c m)) = c.          (* Exists / Modified checkers never touch the reader *)
Proof. cbn. split; reflexivity. Qed.

Theorem open_write_spec s now :
  match s with
  | PDir _ _ => open_write s now = None
  | _ => open_write s now = Some (PFile [] now)
  end.
Proof. destruct s; reflexivity. Qed.

End P.

(* directories: entry names never contain NUL, each is NUL-terminated in the hashed stream, so the stream determines the
   listing; hence different name sets give different stamps (under sha_inj) *)
Definition nul_free (names : list bytes) : Prop := forall n, In n names -> ~ In 0 n.

Lemma terminated_prefix a b x y :
  ~ In 0 a -> ~ In 0 b -> (a ++ [0]) ++ x = (b ++ [0]) ++ y -> a = b /\ x = y.
Proof.
  revert b. induction a as [|c a IH]; intros [|d b] Ha Hb E; cbn in E.
  - injection E as E. split; [reflexivity|exact E].
  - injection E as E0 _. destruct Hb. left. symmetry. exact E0.
  - injection E as E0 _. destruct Ha. left. exact E0.
  - injection E as E0 E. destruct (IH b (fun X => Ha (or_intror X)) (fun X => Hb (or_intror X)) E) as [-> ->]. subst d. split; reflexivity.
Qed.

Theorem dir_stream_inj l1 l2 : nul_free l1 -> nul_free l2 -> dir_stream l1 = dir_stream l2 -> l1 = l2.
Proof.
  revert l2. induction l1 as [|a l1 IH]; intros l2 H1 H2 E.
  - destruct l2 as [|b l2]; [reflexivity|]. unfold dir_stream in E. cbn in E. destruct b; discriminate.
  - destruct l2 as [|b l2].
    + unfold dir_stream in E. cbn in E. destruct a; discriminate.
    + unfold dir_stream in E. cbn [map concat] in E.
      destruct (terminated_prefix a b _ _ (H1 a (or_introl eq_refl)) (H2 b (or_introl eq_refl)) E) as [A B].
      subst. f_equal. apply IH; [intros n X; apply H1; right; exact X|intros n X; apply H2; right; exact X|exact B].
Qed.

Section Dir.
Variable H : Type.
Variable sha : bytes -> H.
Variable eqH : H -> H -> bool.
Hypothesis eqH_spec : forall a b, eqH a b = true <-> a = b.
Hypothesis sha_inj : forall a b, sha a = sha b -> a = b.

Theorem hash_dir_detects n1 m1 n2 m2 :
  nul_free n1 -> nul_free n2 -> ~ (forall x, In x n1 <-> In x n2) ->
  ha_check H sha eqH (PDir n2 m2) (ha_stamp H sha (PDir n1 m1)) = true.
Proof.
  intros F1 F2 Hne. apply (hash_decides H sha eqH eqH_spec). cbn. intros E. inversion E as [E'].
  apply sha_inj in E'. apply dir_stream_inj in E'; try assumption. subst. apply Hne. tauto.
Qed.
End Dir.
