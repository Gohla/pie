(* Frame lemmas: which adjacency lists each store operation can change (only those of the acting task's node), used by
   the execution-stack arguments (no re-entry, at most one execution per session, no internal errors); and what a recorded
   writer, reader or require means for the graph (writer_edge, reader_edge, cte_edge). *)
From Coq Require Import List ZArith.
From PieV Require Import Model.Dag Model.Build Proofs.DagWF Proofs.DagPath Proofs.DagAddEdge Proofs.DagFuel
  Proofs.StoreInv.
Import ListNotations.
Open Scope N_scope.

Definition grows_at (g g' : dag dep) (n : node) : Prop :=
  (forall m, m <> n -> kids_of g' m = kids_of g m) /\ (forall x, In x (kids_of g n) -> In x (kids_of g' n)) /\
  (forall m, live g m = true -> live g' m = true).
Definition same_kids (g g' : dag dep) : Prop := (forall m, kids_of g' m = kids_of g m) /\ (forall m, live g m = true -> live g' m = true).

Lemma same_kids_refl g : same_kids g g. Proof. split; intros; [reflexivity|assumption]. Qed.
Lemma same_kids_trans g1 g2 g3 : same_kids g1 g2 -> same_kids g2 g3 -> same_kids g1 g3.
Proof. intros [A1 B1] [A2 B2]. split; intros; [rewrite A2, A1; reflexivity|apply B2, B1; assumption]. Qed.
Lemma same_grows g g' n : same_kids g g' -> grows_at g g' n.
Proof. intros [A B]. split; [intros; apply A|]. split; [intros x X; rewrite A; exact X|exact B]. Qed.
Lemma grows_refl g n : grows_at g g n. Proof. apply same_grows, same_kids_refl. Qed.
Lemma grows_trans g1 g2 g3 n : grows_at g1 g2 n -> grows_at g2 g3 n -> grows_at g1 g3 n.
Proof.
  intros [A1 [B1 C1]] [A2 [B2 C2]]. split; [intros m Hm; rewrite A2, A1 by exact Hm; reflexivity|].
  split; [intros x X; apply B2, B1; exact X|intros m L; apply C2, C1; exact L].
Qed.

Lemma add_node_same (g : dag dep) id : same_kids g (add_node_at g id).
Proof.
  split; [apply kids_of_add_node|]. intros m L. rewrite live_add_node, L. reflexivity.
Qed.

(* what Store::add_dependency does to the graph: nothing (the edge exists already, a cycle is diagnosed, a node is missing), or
   the one new edge s -> d with data dp, last in the list of s *)
Lemma add_dependency_view w s d dp : WF (gr w) ->
  let '(ar, w') := add_dependency w s d dp in
  (gr w' = gr w /\ (ar = AddOk -> In d (kids_of (gr w) s))) \/
  (ar = AddOk /\ ~ In d (kids_of (gr w) s) /\ (forall m, live (gr w') m = live (gr w) m) /\
   (forall m, kids_of (gr w') m = if N.eqb m s then kids_of (gr w) s ++ [d] else kids_of (gr w) m) /\
   (forall u v, get_edata (gr w') u v = if pair_eqb (s, d) (u, v) then Some dp else get_edata (gr w) u v)).
Proof.
  intros W. unfold add_dependency. pose proof (add_edge_view (gr w) s d dp W) as V.
  destruct (add_edge (gr w) s d dp) as [[[|]|[|]|] g']; cbn [fst snd] in V; cbn [gr set_gr];
    [right|left|left; split; [exact V|discriminate]..|destruct V].
  - destruct V as [NK [VL [VK [_ VE]]]]. repeat split; assumption.
  - destruct V as [-> X]. split; [reflexivity|intros _; exact X].
Qed.

Lemma add_dependency_grows w s d dp : WF (gr w) -> grows_at (gr w) (gr (snd (add_dependency w s d dp))) s.
Proof.
  intros W. pose proof (add_dependency_view w s d dp W) as V. destruct (add_dependency w s d dp) as [ar w']. cbn [snd].
  destruct V as [[-> _]|[_ [_ [VL [VK _]]]]]; [apply grows_refl|]. split; [|split].
  - intros m Hm. rewrite VK. destruct (N.eqb_spec m s); [congruence|reflexivity].
  - intros x X. rewrite VK, N.eqb_refl. apply in_or_app. left. exact X.
  - intros m L. rewrite VL. exact L.
Qed.

Lemma insert_edata_same (g : dag dep) s d dp : same_kids g (insert_edata g s d dp).
Proof. split; intros; [reflexivity|assumption]. Qed.

Lemma remove_outgoing_other (g : dag dep) s : WF g -> (forall m, m <> s -> kids_of (snd (remove_outgoing g s)) m = kids_of g m) /\
  (forall m, live g m = true -> live (snd (remove_outgoing g s)) m = true) /\ kids_of (snd (remove_outgoing g s)) s = [].
Proof.
  intros W. destruct (remove_outgoing_view g s W) as [_ [_ [VL [_ [VK _]]]]]. split; [|split].
  - intros m Hm. rewrite VK. destruct (N.eqb_spec m s); [congruence|reflexivity].
  - intros m X. rewrite VL. exact X.
  - rewrite VK, N.eqb_refl. reflexivity.
Qed.

Lemma cte_edge w a b : StoreOK w -> In (tn b) (kids_of (gr w) (tn a)) -> contains_transitive_task_dependency w a b = Some true.
Proof.
  intros H E. unfold contains_transitive_task_dependency.
  destruct (contains_transitive_edge_total (gr w) (tn a) (tn b) (proj1 H)) as [bb [-> S]].
  f_equal. apply S. apply path1. exact E.
Qed.

Lemma incoming_of_row w x v dp : StoreOK w -> get_edata (gr w) (tn x) v = Some dp -> In (tn x, Some dp) (incoming w v).
Proof.
  intros [W _] R. unfold incoming, get_incoming_edges. apply in_map_iff. exists (tn x). split; [rewrite R; reflexivity|].
  apply (wf_sym _ W), (wf_edata _ W). rewrite R. discriminate.
Qed.
Lemma row_of_incoming w v u e : StoreOK w -> In (u, Some e) (incoming w v) -> get_edata (gr w) (tn (un u)) v = Some e.
Proof.
  intros [W [T _]] Ip. destruct (proj2 (incoming_spec (gr w) v W) u _ Ip) as [E _]. symmetry in E.
  destruct (T _ _ _ E) as [Tu _]. rewrite <- (even_tn u Tu). exact E.
Qed.
Lemma writer_edge w r wr : StoreOK w -> get_task_writing_to_resource w r = Some wr ->
  exists dp, get_edata (gr w) (tn wr) (rn r) = Some dp /\ is_write (Some dp) = true.
Proof.
  intros H. unfold get_task_writing_to_resource. destruct (filter _ _) as [|[n d] tl] eqn:F; [discriminate|]. intros X. inversion X; subst wr.
  assert (I : In (n, d) (filter (fun p => is_write (snd p)) (incoming w (rn r)))) by (rewrite F; left; reflexivity).
  apply filter_In in I. destruct I as [I Wd]. destruct d as [dp|]; [|discriminate]. exists dp. split; [exact (row_of_incoming w _ n dp H I)|exact Wd].
Qed.
Lemma reader_edge w r rd : StoreOK w -> In rd (get_tasks_reading_from_resource w r) ->
  exists dp, get_edata (gr w) (tn rd) (rn r) = Some dp /\ is_read (Some dp) = true.
Proof.
  intros H I. apply in_map_iff in I. destruct I as [[n d] [E I]]. cbn [fst] in E. subst rd.
  apply filter_In in I. destruct I as [I Rd]. destruct d as [dp|]; [|discriminate]. exists dp. split; [exact (row_of_incoming w _ n dp H I)|exact Rd].
Qed.
