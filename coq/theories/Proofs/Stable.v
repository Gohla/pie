(* The program class of C01 (WFP) and the content frame of top-down builds inside that class:
   a resource can only be changed by an execution of its generator; so while the generator is consistent (it is not executed
   again in the session) or is a task on the stack below the running computation, the resource keeps its content.
   Wrote says what a read or write leaves of the observable session state (run_rw_done); the frame for reads and writes follows
   from it, and Sim.v and Valid.v use it as it stands. *)
From Coq Require Import List ZArith Bool.
From PieV Require Import Model.Dag Model.Build Proofs.Local Proofs.StoreInv Proofs.Steps Proofs.ExecInv Proofs.ExecSession Proofs.Cert.
Import ListNotations.
Open Scope N_scope.

Section Cl.
Variable gen : res -> option task.          (* the generator of a resource: the only task whose program writes it *)
Variable wck : rcid -> Prop.                (* the checkers used for write dependencies *)

(* program class, for the program of task t; [seen] = targets touched so far on the path:
   no target twice; a generated resource is read only after its generator was required DIRECTLY by the same program (the
   hidden-dependency check of the code is content with a transitive require; the class is narrower than the property);
   writes go to own products *)
Inductive WFP (t : task) : list node -> prog -> Prop :=
| WFP_ret seen o : WFP t seen (Ret o)
| WFP_panic seen : WFP t seen Panic
| WFP_req seen x c k : ~ In (tn x) seen -> (forall v, WFP t (seen ++ [tn x]) (k v)) -> WFP t seen (Req x c k)
| WFP_read seen r c k : ~ In (rn r) seen -> (gen r = None \/ exists g, gen r = Some g /\ In (tn g) seen) ->
    (forall v, WFP t (seen ++ [rn r]) (k v)) -> WFP t seen (Read r c k)
| WFP_write seen r c v k : ~ In (rn r) seen -> gen r = Some t -> wck c -> (forall x, WFP t (seen ++ [rn r]) (k x)) -> WFP t seen (Write r c v k)
| WFP_wto seen r c v k : ~ In (rn r) seen -> gen r = Some t -> wck c -> (forall x, WFP t (seen ++ [rn r]) (k x)) -> WFP t seen (WrittenTo r c v k).

Lemma WFP_NR t seen p : WFP t seen p -> NR seen p.
Proof. induction 1; constructor; auto. Qed.

Lemma WFP_req_inv t seen x c k : WFP t seen (Req x c k) -> ~ In (tn x) seen /\ forall v, WFP t (seen ++ [tn x]) (k v).
Proof. intros H. inversion H; subst. split; assumption. Qed.
Lemma WFP_rw {X} t seen (o : rwop X) k : WFP t seen (rw_prog o k) ->
  ~ In (rn (rw_res o)) seen /\
  (if rw_writes o then gen (rw_res o) = Some t else gen (rw_res o) = None \/ exists g, gen (rw_res o) = Some g /\ In (tn g) seen) /\
  (rw_writes o = true -> wck (rw_checker o)) /\
  forall x, WFP t (seen ++ [rn (rw_res o)]) (k x).
Proof.
  destruct o; intros H; inversion_clear H;
    (split; [assumption|split; [assumption|split; [intros E; first [discriminate E|assumption]|assumption]]]).
Qed.

Definition StabC (S : list task) (w : world) (r : res) : Prop :=
  gen r = None \/ exists g, gen r = Some g /\ (memN g (consistent w) = true \/ In g S).
Definition CF (S : list task) (w w' : world) : Prop :=
  (forall r, StabC S w r -> get_content w' r = get_content w r) /\ cons_mono w w'.

Lemma CF_refl S w : CF S w w. Proof. split; [reflexivity|intros x X; exact X]. Qed.
Lemma CF_trans S w1 w2 w3 : CF S w1 w2 -> CF S w2 w3 -> CF S w1 w3.
Proof.
  intros [A1 A2] [B1 B2]. split; [|intros x X; apply B2, A2; exact X].
  intros r St. rewrite B1; [apply A1; exact St|].
  destruct St as [E|[g [E [C|I]]]]; [left; exact E|right; exists g; split; [exact E|left; apply A2; exact C]|right; exists g; split; [exact E|right; exact I]].
Qed.
Lemma CF_weaken S t w w' : CF (t :: S) w w' -> CF S w w'.
Proof.
  intros [A1 A2]. split; [|exact A2]. intros r St. apply A1.
  destruct St as [E|[g [E [C|I]]]]; [left; exact E|right; exists g; split; [exact E|left; exact C]|right; exists g; split; [exact E|right; right; exact I]].
Qed.
Lemma CF_same S w w' : rstate w' = rstate w -> consistent w' = consistent w -> CF S w w'.
Proof. intros R C. split; [intros r _; unfold get_content; rewrite R; reflexivity|intros x X; rewrite C; exact X]. Qed.

Definition Wrote (w w1 : world) (r : res) (v : content) : Prop :=
  get_content w1 r = v /\ (forall r', r' <> r -> get_content w1 r' = get_content w r') /\
  env w1 = env w /\ consistent w1 = consistent w /\ outs w1 = outs w.
Lemma wrote_CF S t w w' r v : Wrote w w' r v ->
  get_content w r = v \/ (gen r = Some t /\ memN t (consistent w) = false /\ ~ In t S) -> CF S w w'.
Proof.
  intros [A1 [A2 [_ [A4 _]]]] Hr. split; [|intros x X; rewrite A4; exact X].
  intros r' St. destruct (N.eq_dec r' r) as [->|Hne]; [|apply A2; exact Hne].
  destruct Hr as [E|[Hg [Hn Ht]]]; [congruence|]. exfalso.
  destruct St as [E|[g [E [C|I0]]]]; rewrite Hg in E; [discriminate|inversion E; subst; congruence|inversion E; subst; contradiction].
Qed.

Section Cp.
Variable RC : rcid -> rchecker.
Variable OC : ocid -> ochecker.
Variable P : task -> prog.
Variable sf : rcid -> res -> content -> Z.
Hypothesis HS : forall c env r v, rc_stamp (RC c) env r v = inl (sf c r v).
Hypothesis HWF : forall t, WFP t [] (P t).

Definition outCF {A} (S : list task) (w : world) (m : outcome A) : Prop :=
  match m with Done _ w' => CF S w w' | _ => True end.

Definition CFMC (mc : world -> task -> outcome Z) : Prop :=
  forall w t S, StoreOK w -> Inv2 w -> Chain w S -> entry_ok w S t -> outCF S w (mc w t).
Definition CFREQ (t : task) (S : list task) (req : world -> task -> ocid -> outcome Z) : Prop :=
  forall w x c, Pre t S w -> memN t (consistent w) = false -> outCF S w (req w x c).

Lemma content_goc_res w r r' : get_content (get_or_create_resource_node w r) r' = get_content w r'.
Proof. destruct (goc_res_gr w r) as [g ->]. reflexivity. Qed.
Lemma content_goc_task w x r' : get_content (get_or_create_task_node w x) r' = get_content w r'.
Proof. destruct (goc_task_gr w x) as [g ->]. reflexivity. Qed.

Lemma get_content_set_other w r v r' : r' <> r -> get_content (set_content w r v) r' = get_content w r'.
Proof.
  intros Hne. unfold get_content, set_content. destruct v as [z|]; cbn [rstate set_rstate].
  - apply alookup_aset_other. exact Hne.
  - apply alookup_aremove_other. exact Hne.
Qed.

Lemma record_wrote {A} (y x : A) w w3 w' t r dp v : Wrote w w3 r v ->
  match add_dependency w3 (tn t) (rn r) dp with (AddBug, w4) => Abort (ABug 4) w4 | (_, w4) => Done y w4 end = Done x w' ->
  x = y /\ Wrote w w' r v.
Proof.
  intros Hw. destruct (add_dependency_gr w3 (tn t) (rn r) dp) as [g Eg].
  destruct (add_dependency w3 (tn t) (rn r) dp) as [[| |] w4]; cbn [snd] in *; intros X; inversion X; subst x w' w4; (split; [reflexivity|exact Hw]).
Qed.

Lemma rw_mid_wrote {X} (o : rwop X) w : Wrote w (rw_mid sf o w) (rw_res o) (rw_val o (get_content w (rw_res o))).
Proof.
  destruct o as [r c|r c v|r c v]; cbn [rw_mid rw_res rw_val]; unfold rw_at; cbn [rw_before rw_start rw_res].
  - split; [apply (content_goc_res (emit w (EReadStart r c)))|]. split; [intros r' _; apply (content_goc_res (emit w (EReadStart r c)))|].
    unfold get_or_create_resource_node. destruct (live _ _); repeat split.
  - set (w2 := get_or_create_resource_node (emit w (EWriteStart r c)) r). split; [apply (get_content_set_content w2)|].
    split; [intros r' Hne; change (get_content (set_content w2 r v) r' = get_content w r'); rewrite (get_content_set_other w2 r v r' Hne); apply (content_goc_res (emit w (EWriteStart r c)))|].
    unfold w2, get_or_create_resource_node. destruct (live _ _); destruct v; repeat split.
  - set (w2 := get_or_create_resource_node (emit (set_content w r v) (EWriteStart r c)) r).
    split; [change (get_content w2 r = v); unfold w2; rewrite content_goc_res; apply (get_content_set_content w r v)|].
    split; [intros r' Hne; change (get_content w2 r' = get_content w r'); unfold w2; rewrite content_goc_res; apply (get_content_set_other w r v r' Hne)|].
    unfold w2, get_or_create_resource_node. destruct (live _ _); destruct v; repeat split.
Qed.

Lemma run_rw_done {X} (o : rwop X) w t x w' : cur w = Some t -> run_rw RC o w = Done x w' ->
  x = rw_ans RC o (get_content w (rw_res o)) /\ Wrote w w' (rw_res o) (rw_val o (get_content w (rw_res o))).
Proof.
  intros Hc. rewrite (run_rw_eq RC sf HS o w t Hc). destruct (rw_blocked o _ t); [discriminate|].
  apply record_wrote, rw_mid_wrote.
Qed.

Lemma run_rw_CF {X} S t (o : rwop X) w : cur w = Some t -> (if rw_writes o then gen (rw_res o) = Some t else True) ->
  memN t (consistent w) = false -> ~ In t S -> outCF S w (run_rw RC o w).
Proof.
  intros Hc Hg Hn Ht. destruct (run_rw RC o w) as [x w'|k w'|] eqn:Eq; cbn [outCF]; trivial.
  apply (wrote_CF S t w w' _ _ (proj2 (run_rw_done o w t x w' Hc Eq))).
  destruct o; [left; reflexivity|right; repeat split; assumption|right; repeat split; assumption].
Qed.

Lemma step_nc {A} t S w (a : A) w1 extra : okP S [t] [] w (Done a w1) extra -> memN t (consistent w) = false -> memN t (consistent w1) = false.
Proof.
  intros [[seg P1] _] Hn. destruct (memN t (consistent w1)) eqn:Z; [|reflexivity].
  apply (po_keep _ _ _ _ _ _ P1) in Z; [congruence|right; left; reflexivity].
Qed.

Lemma require_with_CF_strong mc t S : MCspec mc -> CFMC mc ->
  forall w x c, Pre t S w -> outCF (t :: S) w (require_with OC mc w x c).
Proof.
  intros HM HC w x c PR. pose proof (require_with_run OC mc t S w x c HM PR) as RR. cbv zeta in RR.
  set (w2 := at_require w x c) in *.
  destruct (add_dependency_gr w2 (tn t) (tn x) DReserved) as [g Eg].
  destruct (add_dependency w2 (tn t) (tn x) DReserved) as [[| |] w3]; cbn [snd] in *; [|destruct RR as [_ ->]; exact I|rewrite RR; exact I].
  destruct RR as [L3 [E3 [C3 [J3 [Ho3 [Hc3 RM]]]]]].
  assert (CF03 : CF (t :: S) w w3).
  { rewrite Eg. unfold w2, at_require. destruct (goc_task_gr (emit w (ERequireStart x c)) x) as [g2 ->]. apply CF_same; reflexivity. }
  pose proof (HC w3 x (t :: S) (lf_ok _ _ _ L3) J3 C3 E3) as MC.
  destruct (mc w3 x) as [o w4|k w4|]; [|rewrite RM; exact I|rewrite RM; exact I].
  destruct RM as [_ [_ ->]]. cbn [outCF] in *.
  eapply CF_trans; [exact CF03|]. eapply CF_trans; [exact MC|]. apply CF_same; reflexivity.
Qed.

Lemma require_with_CF mc t S : MCspec mc -> CFMC mc -> CFREQ t S (require_with OC mc).
Proof.
  intros HM HC w x c PR _. eapply holds_mono; [exact (require_with_CF_strong mc t S HM HC w x c PR)|intros o w' _; apply (CF_weaken S t)|intros; exact I].
Qed.

Lemma seq_CF {A} t S req w (m : outcome A) (kk : A -> prog) : Pre t S w -> memN t (consistent w) = false ->
  okP S [t] [] w m (fun _ w' => cur w' = Some t /\ NoResAt w' t) -> outCF S w m ->
  (forall a w1, Pre t S w1 -> memN t (consistent w1) = false -> outCF S w1 (exec_prog RC OC req (kk a) w1)) ->
  outCF S w (bind m (fun a w' => exec_prog RC OC req (kk a) w')).
Proof.
  intros PR Hnc SP CQ IH. destruct m as [a w1|k1 w1|]; cbn [bind outCF] in *; try exact I.
  specialize (IH a w1 (pre_step t S w a w1 PR SP) (step_nc t S w a w1 _ SP Hnc)).
  destruct (exec_prog RC OC req (kk a) w1); cbn [outCF] in *; try exact I. eapply CF_trans; eassumption.
Qed.

Lemma exec_prog_CF t S req : REQspec t S req -> CFREQ t S req ->
  forall p w seen, Pre t S w -> memN t (consistent w) = false -> WFP t seen p -> outCF S w (exec_prog RC OC req p w).
Proof.
  intros HR HC. induction p as [o| |x c k IH|X o k IH] using prog_rw_ind; intros w seen PR Hnc HW.
  - apply CF_refl.
  - exact I.
  - destruct (WFP_req_inv t seen x c k HW) as [Hx Hk].
    apply (seq_CF t S req w (req w x c) (fun o => k (oc_view (OC c) o)) PR Hnc); [exact (req_pre t S req w x c HR PR)|exact (HC w x c PR Hnc)|].
    intros o w1 PR1 Hnc1. apply (IH _ w1 _ PR1 Hnc1 (Hk _)).
  - destruct (WFP_rw t seen o k HW) as [_ [Hg [_ Hk]]]. rewrite exec_prog_rw.
    apply (seq_CF t S req w (run_rw RC o w) k PR Hnc); [apply (rw_pre t S w _ PR (run_rw_chain RC o w))| |].
    + apply (run_rw_CF S t o w (pre_cur _ _ _ PR)); [destruct o; [exact I|exact Hg|exact Hg]|exact Hnc|apply (chain_head_notin _ _ _ (pre_chain _ _ _ PR))].
    + intros xv w1 PR1 Hnc1. apply (IH xv w1 _ PR1 Hnc1 (Hk xv)).
Qed.

Lemma execute_with_CF t S req : REQspec t S req -> CFREQ t S req ->
  forall w, Top t S w -> outCF S w (execute_with RC OC P req w t).
Proof.
  intros HR HC w T. destruct (exec_start_pre t S w T) as [PR2 [Hn2 [_ [R2 C2]]]]. rewrite execute_with_eq.
  set (w2 := startw w t) in *.
  eapply holds_bind; [exact (exec_prog_CF t S req HR HC (P t) w2 [] PR2 Hn2 (HWF t))|]. intros o w3 _ X.
  eapply CF_trans; [apply (CF_same S w w2 R2 C2)|]. eapply CF_trans; [exact X|]. apply CF_same; reflexivity.
Qed.

(* CF as a pass over the top-down interpreter (ExecSession.TdPass): a relation, claimed of the calls that return *)
Lemma CF_still S w w' : Still w w' -> CF S w w'.
Proof. intros [_ [_ [_ [Qr Qc]]]]. split; [intros r _; unfold get_content; rewrite Qr; reflexivity|exact Qc]. Qed.
Lemma CF_laws : Laws (fun _ => True) CF True (fun _ _ => True).
Proof. constructor; auto; [apply CF_trans|intros S w w' _; apply CF_still|apply CF_weaken]. Qed.

Lemma CFMC_X f mc : TdMC (fun _ => True) CF (fun _ _ => True) True (fun _ _ => True) f mc <-> CFMC mc.
Proof. split; [intros HX w t S H J0 C E; exact (HX w t S H J0 C E Logic.I Logic.I)|intros HC w t S H J0 C E _ _; exact (HC w t S H J0 C E)]. Qed.

Lemma execute_CF f t S w : CFMC (make_consistent_td RC OC P f) -> Top t S w ->
  outCF S w (execute_with RC OC P (require_with OC (make_consistent_td RC OC P f)) w t).
Proof.
  intros HC. pose proof (make_consistent_td_spec RC OC P f) as HM.
  apply execute_with_CF; [apply (require_with_spec OC); exact HM|apply require_with_CF; assumption].
Qed.

Lemma check_deps_CF mc t S : MCspec mc -> CFMC mc ->
  forall ds w, StoreOK w -> Inv2 w -> Chain w (t :: S) -> (forall d, In d ds -> dep_ok w t d) ->
  outCF (t :: S) w (check_deps RC OC mc ds w).
Proof.
  intros HM HC ds w H J0 C HE.
  exact (check_deps_X RC OC _ _ _ _ _ CF_laws 0 mc t S HM (proj2 (CFMC_X 0 mc) HC) Logic.I ds w H J0 C HE Logic.I).
Qed.

Theorem make_consistent_td_CF fuel : CFMC (make_consistent_td RC OC P fuel).
Proof.
  apply (CFMC_X fuel), (make_consistent_td_X RC OC P _ _ _ _ _ CF_laws).
  intros f t S w HX T _ _. exact (execute_CF f t S w (proj1 (CFMC_X f _) HX) T).
Qed.
End Cp.
End Cl.
