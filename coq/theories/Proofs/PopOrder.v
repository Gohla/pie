(* C04, "a scheduled task is never executed before another scheduled task that it depends on", at every place where the
   bottom-up build takes a task out of its queue (the two pops; each is directly followed by the execution of the popped
   task): in ANY world with a well-formed dependency graph -- every reachable world, by C06_store_invariant_every_reachable_state --
   the popped task does not (transitively) depend on any task that stays queued. *)
From Coq Require Import List NArith Bool Lia.
From PieV Require Import Model.Build Proofs.DagWF Proofs.DagPath Proofs.DagFuel Proofs.Queue Proofs.StoreInv.
Import ListNotations.
Open Scope N_scope.

Definition depends_on (w : world) (t q : task) : Prop := path (gr w) (tn t) (tn q).

Theorem queue_pop_no_queued_dependency w t w' :
  StoreOK w -> queue_pop w = Some (t, w') ->
  forall q, In q (queue w') -> ~ depends_on w t q.
Proof.
  intros [W _] H q Hq D.
  destruct (queue_pop_max w t w' H) as [_ [Hmax [Hrest _]]].
  apply Hrest in Hq. destruct Hq as [Hq _].
  specialize (Hmax q Hq). unfold rank_t in Hmax.
  pose proof (path_rank (gr w) (tn t) (tn q) W D). lia.
Qed.

Lemma eligible_iff w src q : WF (gr w) -> (eligible w src q = true <-> src = q \/ depends_on w src q).
Proof.
  intros W. unfold eligible, depends_on, contains_transitive_task_dependency. rewrite orb_true_iff, N.eqb_eq.
  destruct (contains_transitive_edge_total (gr w) (tn src) (tn q) W) as [b [-> S]]. destruct b.
  - split; intros _; right; [apply S|]; reflexivity.
  - split; (intros [E|E]; [left; exact E|]); [discriminate|apply S in E; discriminate].
Qed.

Theorem pop_least_no_queued_dependency w src t w' :
  StoreOK w -> pop_least_from w src = Some (t, w') ->
  forall q, In q (queue w') -> ~ depends_on w t q.
Proof.
  intros [W _] H q Hq D.
  destruct (pop_least_from_max w src t w' H) as [_ [Helig [Hmax [Hrest _]]]].
  apply Hrest in Hq. destruct Hq as [Hq _].
  (* q is eligible as well: src = t or src reaches t, and t reaches q *)
  assert (Eq : eligible w src q = true).
  { apply (eligible_iff w src q W). right. apply (eligible_iff w src t W) in Helig.
    destruct Helig as [->|P]; [exact D|exact (path_trans _ _ _ _ P D)]. }
  specialize (Hmax q Hq Eq). unfold rank_t in Hmax.
  pose proof (path_rank (gr w) (tn t) (tn q) W D). lia.
Qed.

Theorem pop_least_takes_a_dependency w src t w' :
  StoreOK w -> pop_least_from w src = Some (t, w') -> t = src \/ depends_on w src t.
Proof.
  intros [W _] H. destruct (pop_least_from_max w src t w' H) as [_ [Helig _]].
  apply (eligible_iff w src t W) in Helig. destruct Helig as [E|P]; [left; symmetry; exact E|right; exact P].
Qed.
