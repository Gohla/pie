(* Non-vacuity of the C03 theorems of UpToDate.v: a decision procedure for their premise AllValid ("all known tasks were last
   consistent"), and the generator/consumer instance of C01Witness.v: after a session that built both tasks every recorded
   dependency is consistent; the generator's input then changes, the bottom-up build is told so and re-executes both tasks;
   requiring the consumer afterwards executes nothing and returns the new stored output. *)
From Coq Require Import List ZArith Lia.
From PieV Require Import Model.Dag Model.Build Proofs.Local Proofs.DagWF Proofs.ExecInv Proofs.Cert Proofs.NoBug4All Proofs.NoAbort Proofs.Valid Proofs.C01Witness Proofs.UpToDate.
Import ListNotations.
Open Scope N_scope.

Section Dec.
Variable RC : rcid -> rchecker.
Variable OC : ocid -> ochecker.
Definition dep_goodb (w : world) (dp : dep) : bool :=
  match dp with
  | DReserved => false
  | DRequire y c st => match get_task_output w y with Some oy => oc_check (OC c) oy st | None => false end
  | DRead r c st | DWrite r c st => match rc_check (RC c) (env w) r (get_content w r) st with Consistent => true | _ => false end
  end.
Definition allvalidb (w : world) : bool :=
  forallb (fun p => forallb (fun e => match snd e with Some dp => dep_goodb w dp | None => true end) (get_outgoing_edges (gr w) (tn (fst p)))) (outs w).
Lemma alookup_some_in {V} (l : list (N * V)) k v : alookup l k = Some v -> In (k, v) l.
Proof.
  induction l as [|[a x] tl IH]; cbn; [discriminate|]. destruct (N.eqb_spec a k) as [->|Hne]; [intros E; inversion E; left; reflexivity|intros E; right; apply IH; exact E].
Qed.
Lemma allvalidb_sound w : WF (gr w) -> allvalidb w = true -> AllValid RC OC w.
Proof.
  intros W H x Ox d dp R. unfold allvalidb in H. rewrite forallb_forall in H.
  destruct (get_task_output w x) as [o|] eqn:E; [|contradiction Ox; reflexivity]. specialize (H (x, o) (alookup_some_in _ _ _ E)). cbn [fst] in H.
  rewrite forallb_forall in H. specialize (H (d, Some dp)). cbn [snd] in H.
  assert (Ik : In (d, Some dp) (get_outgoing_edges (gr w) (tn x))).
  { unfold get_outgoing_edges. apply in_map_iff. exists d. unfold row in R. rewrite R. split; [reflexivity|]. apply (wf_edata _ W). rewrite R. discriminate. }
  specialize (H Ik). destruct dp as [|y c st|r c st|r c st]; cbn in *; [discriminate| | |].
  - destruct (get_task_output w y) as [oy|]; [exists oy; split; [reflexivity|exact H]|discriminate].
  - destruct (rc_check (RC c) (env w) r (get_content w r) st); [reflexivity|discriminate|discriminate].
  - destruct (rc_check (RC c) (env w) r (get_content w r) st); [reflexivity|discriminate|discriminate].
Qed.
End Dec.

Definition hy : list step := [HEdit 1 (Some 1%Z); HSession [SRequire 0]].
Notation wy := (snd (run_history RCx OCx Px 0 50 init_world hy)).
Definition editsy : list (res * content) := [(1, Some 2%Z)].
Notation wy1 := (snd (run_history RCx OCx Px 0 50 wy (edits_of editsy))).

Lemma C03_witness_premises :
  AllValid RCx OCx wy /\ (forall r, get_content wy1 r <> get_content wy r -> In r [1]) /\ roots_below ordx 50 [SRequire 0].
Proof.
  split; [|split].
  - apply allvalidb_sound; [|vm_compute; reflexivity]. apply (run_history_R RCx OCx Px 0 50 hy init_world L_init).
  - intros r Hne. destruct (N.eq_dec r 1) as [->|Hr]; [left; reflexivity|]. exfalso. apply Hne.
    cbn [edits_of editsy map run_history run_step fst snd]. unfold set_content, get_content. cbn [rstate set_rstate]. apply alookup_aset_other. exact Hr.
  - cbn. split; [lia|exact I].
Qed.
Lemma C03_witness_does_real_work :
  match session_bottom_up RCx OCx Px 50 (new_session wy1) [1] with
  | Done _ w' => execs (trace w') = [0; 1] /\ get_task_output w' 0 = Some 211%Z /\
                 fst (run_session RCx OCx Px 0 50 (new_session w') [SRequire 0]) = [RDone (Some 211%Z)]
  | _ => False
  end.
Proof. vm_compute. repeat split. Qed.
Lemma C03_witness_instance :
  match session_bottom_up RCx OCx Px 50 (new_session wy1) [1] with
  | Done _ w' =>
      (forall t, In t (roots [SRequire 0]) -> get_task_output w' t <> None) ->
      let r := run_session RCx OCx Px 0 50 (new_session w') [SRequire 0] in
      fst r = map (fun t => RDone (get_task_output w' t)) (roots [SRequire 0]) /\ execs (rev (trace (snd r))) = [] /\
      forall r0, get_content (snd r) r0 = get_content w' r0
  | Abort _ _ => False
  | OutOfFuel => True
  end.
Proof.
  destruct C03_witness_premises as [A [B C]].
  exact (bottom_up_leaves_tasks_up_to_date genx (fun _ => True) ordx RCx OCx Px (fun _ _ v => enc v) HSx HWFx HWOx HReflx HReflOx 0 50 hy editsy [1] [SRequire 0] A B C).
Qed.
Lemma C03_witness_complete_instance :
  match session_bottom_up RCx OCx Px 50 (new_session wy1) [1] with
  | Done _ w' =>
      (forall t, In t (roots [SRequire 0]) -> get_task_output w' t <> None) ->
      let ra := run_session RCx OCx Px 0 50 (new_session w') [SRequire 0] in
      let rb := run_session RCx OCx Px 0 50 (new_session (Sim.fresh_of w')) [SRequire 0] in
      execs (rev (trace (snd ra))) = [] /\ fst ra = fst rb /\ Forall Sim.is_done (fst rb) /\ forall r, get_content (snd ra) r = get_content (snd rb) r
  | Abort _ _ => False
  | OutOfFuel => True
  end.
Proof.
  destruct C03_witness_premises as [A [B C]].
  exact (bottom_up_then_require_equals_scratch genx (fun _ => True) ordx RCx OCx Px (fun _ _ v => enc v) HSx HWFx HWOx HReflx HReflOx 0 HCx HWx HOCx 50 50 hy editsy [1] [SRequire 0] A B C C).
Qed.
