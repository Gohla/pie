(* What holds of top-down sessions and histories only: no task is executed twice in a session (C02, C07), every result is a
   value, a user-level abort or out-of-fuel (C19), the static class returns (C20).  The model-only abort ABug 4 never occurs, by
   NoBug4All.v.  What holds after every history (C01, C02's last clause, C08) is in SimAll.v and CertAll.v. *)
From Coq Require Import List ZArith.
From PieV Require Import Model.Build Proofs.ExecInv Proofs.ExecSession Proofs.Stable
  Proofs.NoBug4All Proofs.Sim Proofs.NoAbort.
Import ListNotations.
Open Scope N_scope.

Section F.
Variable RC : rcid -> rchecker.
Variable OC : ocid -> ochecker.
Variable P : task -> prog.
Variable always : ocid.

(* a require of a session keeps the store invariants (J, and L of NoBug4All.v: the current task and the queued ones are in
   the graph), also when it aborts, and it aborts only for a user-level reason *)
Definition JL (v : world) : Prop := J v /\ L v.
Lemma session_require_good fuel w t : JL w -> sesO JL JL good_res (session_require RC OC P always fuel w t).
Proof.
  intros [Jw Lw]. pose proof (session_require_R RC OC P always fuel w t Lw) as R.
  pose proof (session_require_execs RC OC P always fuel w t Jw) as SE.
  destruct (session_require RC OC P always fuel w t) as [x w1|k w1|]; cbn [sesO good_res okR] in *; [split; [apply SE|apply R]| |exact Logic.I].
  destruct R as [NB [L1 _]]. destruct SE as [->|[U [J1 _]]]; [contradiction NB; reflexivity|]. split; [exact U|split; assumption].
Qed.

(* a session of requires as one computation: whether it returns or an abort ends it, it satisfies PostA from its start -- the
   requires that return compose by post_seq, the abort by postA_seq; that no task is executed twice is part of what they compose *)
Theorem session_postA fuel w0 ops : JL w0 -> td_only ops -> exists seg, PostA [] [] w0 (snd (run_session RC OC P always fuel w0 ops)) seg.
Proof.
  intros JL0 TD.
  apply (run_session_lift RC OC P always (fun v => exists seg, PostA [] [] w0 v seg) (fun v => JL v /\ exists seg, Post [] [] [] w0 v seg) (fun _ => True) (fun _ => is_req));
    [trivial|intros v [_ [seg X]]; exists seg; exact (post_to_A _ _ _ _ _ _ X)| |intros f v ch []|apply td_only_req; exact TD|
     split; [exact JL0|exists []; apply post_refl; apply JL0]].
  intros f v t _ [JLv [seg P0]]. pose proof (session_require_spec RC OC P always f v t (proj1 (proj1 JLv)) (proj2 (proj1 JLv))) as SP.
  pose proof (session_require_good f v t JLv) as G.
  destruct (session_require RC OC P always f v t) as [x v1|k v1|]; cbn [sesO okP] in *; [| |exact Logic.I].
  - destruct SP as [[s1 P1] _]. split; [exact G|]. exists (seg ++ s1). eapply post_seq; eassumption.
  - split; [exact Logic.I|]. destruct SP as [->|[_ [s1 P1]]]; [destruct G as [[] _]|]. exists (seg ++ s1). eapply postA_seq; eassumption.
Qed.

(* C02 / C07: in a session of requires no task is executed twice, from every store satisfying the invariants *)
Theorem session_at_most_once fuel w ops : J w -> td_only ops ->
  NoDup (execs (rev (trace (snd (run_session RC OC P always fuel (new_session w) ops))))).
Proof.
  intros Jw TD. destruct (session_postA fuel (new_session w) ops) as [seg [_ T N _ _]]; [|exact TD|].
  - split; [apply J_new_session; exact Jw|split; [apply Jw|split; [intros t X; discriminate|intros t []]]].
  - rewrite T. cbn [new_session trace]. rewrite app_nil_r, rev_involutive. exact N.
Qed.

(* C19: every result of every session of every top-down history is a value, a user-level abort or out-of-fuel, and the
   invariants hold in the final store *)
Theorem history_sound fuel h : td_hist h ->
  Forall (Forall good_res) (fst (run_history RC OC P always fuel init_world h)) /\ J (snd (run_history RC OC P always fuel init_world h)).
Proof.
  intros TD.
  destruct (run_history_lift RC OC P always JL JL good_res (fun _ => is_req) (fun x => Logic.I) (fun v X => X)
              (fun f v t _ => session_require_good f v t) (fun f v ch (X : False) => match X with end)) with (fuel := fuel) (h := h) (w := init_world)
    as [F [Jw _]]; [| | |apply td_hist_req; exact TD|split; [exact J_init|exact L_init]|split; assumption].
  - intros v [Jv Lv]. split; [apply J_new_session; exact Jv|apply L_new_session; exact Lv].
  - intros v r c [Jv Lv]. split; [apply J_set_content; exact Jv|apply L_set_content; exact Lv].
  - intros v e [Jv Lv]. split; [exact Jv|apply L_set_env; exact Lv].
Qed.

(* every reachable store satisfies the invariants, so the session theorems apply to it *)
Theorem history_J fuel h : td_hist h -> J (snd (run_history RC OC P always fuel init_world h)).
Proof. intros TD. apply (history_sound fuel h TD). Qed.

Section Tot.
Variable gen : res -> option task.
Variable wck : rcid -> Prop.
Variable ord : task -> nat.
Variable sf : rcid -> res -> content -> Z.
Hypothesis HS : forall c env r v, rc_stamp (RC c) env r v = inl (sf c r v).
Hypothesis HWF : forall t, WFP gen wck t [] (P t).
Hypothesis HWO : forall t, WFO ord t (P t).

(* C20 (first clause): for well-formed programs no session of any history aborts -- neither with a cycle, hidden-dependency or
   overlapping-write diagnosis, nor otherwise -- and every require returns, given fuel above the height of the roots *)
Theorem static_class_never_aborts fuel h : hist_below ord fuel h ->
  Forall (Forall is_done) (fst (run_history RC OC P always fuel init_world h)).
Proof.
  intros HB. apply (history_returns gen wck ord RC OC P sf HS HWF HWO always fuel h init_world HB J_init (Q_init gen ord)).
Qed.
End Tot.
End F.
