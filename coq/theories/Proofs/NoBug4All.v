(* "Node missing" / graph-search-fuel aborts (ABug 4) never happen -- in ANY session: top-down, bottom-up or mixed, after
   any number of aborted builds, for all programs and checkers.  So the disjunct "or a build ended with ABug 4" of History.v's theorems
   (bug4) never holds, and the store invariants (well-formed acyclic graph with gap-free ranks, typed edges, single writer:
   StoreInv.StoreOK_preserved, carried inside L) are unconditional facts of every reachable state.

   The invariant L carries, besides StoreOK, the two liveness facts the code relies on implicitly: the node of the currently
   executing task exists, and every task in the bottom-up queue has a node.  Results are relational (nodes are never removed). *)
From Coq Require Import List NArith.
From PieV Require Import Model.Dag Model.Build Proofs.DagWF Proofs.DagPath Proofs.StoreInv Proofs.Effects
  Proofs.Steps Proofs.InvE Proofs.History Proofs.ExecInv Proofs.ExecSession.
Import ListNotations.
Open Scope N_scope.

Definition notB4 {A} (m : outcome A) : Prop := forall w', m <> Abort (ABug 4) w'.
Lemma notB4_done {A} (a : A) w : notB4 (Done a w). Proof. intros w' X. discriminate. Qed.
Lemma notB4_abort {A} k w : k <> ABug 4 -> notB4 (@Abort A k w). Proof. intros H w' X. inversion X. congruence. Qed.
Lemma notB4_bind {A B} (m : outcome A) (f : A -> world -> outcome B) :
  notB4 m -> (forall a w1, m = Done a w1 -> notB4 (f a w1)) -> notB4 (bind m f).
Proof.
  intros H F. destruct m as [a w1|k w1|]; cbn [bind]; [apply (F a w1 eq_refl)| |intros w' X; discriminate].
  intros w' X. inversion X; subst. exact (H w' eq_refl).
Qed.

(* a failed step needs a missing node, and there is none: the node of the executing task is in the graph, that of the
   resource has just been created *)
Lemma lfail_never w w' : StoreOK w -> (forall t, cur w = Some t -> live (gr w) (tn t) = true) -> lfail w w' -> False.
Proof. intros H Hc F. destruct F as [w t r dp w' Ct Lr E]. apply (add_dep_not_bug w (tn t) (rn r) dp (proj1 H) (Hc t Ct) Lr). rewrite E. reflexivity. Qed.
Lemma lstep_live a b : StoreOK a -> lstep a b -> (forall n, live (gr a) n = true -> live (gr b) n = true) /\ cur b = cur a.
Proof.
  intros H S. split; [|apply (lstep_fields a b S)]. destruct S as [a e _|a r|a r v|a t r dp ar b _ _ _ E _]; [trivial| |destruct v; trivial|].
  - apply (lf_grows _ _ _ (leaf_goc_res 0 a r H)).
  - pose proof (add_dependency_grows a (tn t) (rn r) dp (proj1 H)) as G. rewrite E in G. apply G.
Qed.
Lemma rw_chain_NB {A} w (m : outcome A) : StoreOK w -> (forall t, cur w = Some t -> live (gr w) (tn t) = true) -> rw_chain w m -> notB4 m.
Proof.
  intros H Hc C. destruct m as [x w'|k w'|]; [apply notB4_done| |intros w' X; discriminate].
  destruct C as [[_ [w0 [C F]]]|[[->| ->] _]]; [|apply notB4_abort; discriminate..]. exfalso.
  destruct (rw_chain_rel (fun a b => (forall n, live (gr a) n = true -> live (gr b) n = true) /\ cur b = cur a) w (Done tt w0)) as [[M Cq] H0]; try assumption.
  - intros a. split; [trivial|reflexivity].
  - intros a b c [M1 C1] [M2 C2]. split; [intros n X; apply M2, M1, X|congruence].
  - exact lstep_live.
  - apply (lfail_never w0 w' H0); [|exact F]. intros t Ct. apply M, Hc. rewrite <- Cq. exact Ct.
Qed.
Section NB.
Variable RC : rcid -> rchecker.
Lemma sess_read_NB w t r c : StoreOK w -> cur w = Some t -> live (gr w) (tn t) = true -> notB4 (sess_read RC w r c).
Proof. intros H Hc Lt. apply (rw_chain_NB w _ H); [intros t' Ct; congruence|apply (run_rw_chain RC (ORead r c))]. Qed.
Lemma sess_write_NB w t r c v : StoreOK w -> cur w = Some t -> live (gr w) (tn t) = true -> notB4 (sess_write RC w r c v).
Proof. intros H Hc Lt. apply (rw_chain_NB w _ H); [intros t' Ct; congruence|apply (run_rw_chain RC (OWrite r c v))]. Qed.
Lemma sess_written_to_NB w0 t r c v : StoreOK w0 -> cur w0 = Some t -> live (gr w0) (tn t) = true -> notB4 (sess_written_to RC w0 r c v).
Proof. intros H Hc Lt. apply (rw_chain_NB w0 _ H); [intros t' Ct; congruence|apply (run_rw_chain RC (OWrittenTo r c v))]. Qed.
End NB.

Definition mono (w w' : world) : Prop := forall n, live (gr w) n = true -> live (gr w') n = true.
Definition CL (w : world) : Prop := forall t, cur w = Some t -> live (gr w) (tn t) = true.
Definition QL (w : world) : Prop := forall t, In t (queue w) -> live (gr w) (tn t) = true.
Definition L (w : world) : Prop := StoreOK w /\ CL w /\ QL w.

Lemma mono_refl w : mono w w. Proof. intros n H. exact H. Qed.
Ltac mr := let n := fresh "n" in let X := fresh "X" in intros n X; exact X.
Lemma mono_trans a b c : mono a b -> mono b c -> mono a c. Proof. intros X Y n H. apply Y, X, H. Qed.

Definition okR {A} (w : world) (m : outcome A) : Prop :=
  match m with
  | Done _ w' => L w' /\ mono w w'
  | Abort k w' => k <> ABug 4 /\ L w' /\ mono w w'
  | OutOfFuel => True
  end.

Lemma okR_pre {A} w0 w (m : outcome A) : mono w0 w -> okR w m -> okR w0 m.
Proof.
  intros M. destruct m as [a w1|k w1|]; cbn; [intros [H1 H2]|intros [H0 [H1 H2]]|trivial].
  - split; [exact H1|eapply mono_trans; eassumption].
  - split; [exact H0|]. split; [exact H1|eapply mono_trans; eassumption].
Qed.
Lemma bind_R {A B} w (m : outcome A) (f : A -> world -> outcome B) :
  okR w m -> (forall a w1, L w1 -> mono w w1 -> okR w1 (f a w1)) -> okR w (bind m f).
Proof. intros H F. eapply holds_bind; [exact H|]. intros a w1 _ [H1 H2]. apply (okR_pre w w1); [exact H2|apply F; assumption]. Qed.

Lemma L_same w w' : gr w' = gr w -> cur w' = cur w -> queue w' = queue w -> L w -> L w' /\ mono w w'.
Proof.
  intros G C Q [H1 [H2 H3]]. split; [|intros n; rewrite G; trivial].
  split; [unfold StoreOK; rewrite G; exact H1|]. split; [intros t; rewrite C, G; apply H2|intros t; rewrite Q, G; apply H3].
Qed.
Lemma L_emit w e : L w -> L (emit w e). Proof. intros H. apply (L_same w (emit w e)); auto. Qed.
Lemma L_push_err w e : L w -> L (push_err w e). Proof. intros H. apply (L_same w (push_err w e)); auto. Qed.
Lemma L_mark w t : L w -> L (mark_consistent w t). Proof. intros H. apply (L_same w (mark_consistent w t)); auto. Qed.
Lemma L_set_content w r v : L w -> L (set_content w r v).
Proof. intros H. apply (L_same w (set_content w r v)); destruct v; auto. Qed.
Lemma L_set_env w e : L w -> L (set_env w e). Proof. intros H. apply (L_same w (set_env w e)); auto. Qed.
Lemma L_set_queue_nil w : L w -> L (set_queue w []).
Proof. intros [H1 [H2 H3]]. split; [exact H1|]. split; [exact H2|intros x []]. Qed.
Lemma L_set_cur_none w : L w -> L (set_cur w None).
Proof. intros [H1 [H2 H3]]. split; [exact H1|]. split; [intros t X; discriminate|exact H3]. Qed.

Lemma L_graph w w' : StoreOK w' -> mono w w' -> cur w' = cur w -> queue w' = queue w -> L w -> L w'.
Proof.
  intros S M C Q [_ [H2 H3]]. split; [exact S|]. split; [intros t X; rewrite C in X; apply M, H2, X|intros t X; rewrite Q in X; apply M, H3, X].
Qed.

Lemma goc_L w n : L w -> L (goc w n) /\ mono w (goc w n).
Proof.
  intros H. pose proof (goc_ok w n (proj1 H)) as H'. destruct (goc_spec w n) as [g [E [_ [_ [Lg _]]]]]. rewrite E in *.
  assert (M : mono w (set_gr w g)) by (intros m X; cbn; rewrite Lg, X; reflexivity).
  split; [|exact M]. apply (L_graph w); [exact H'|exact M|reflexivity|reflexivity|exact H].
Qed.
Lemma goc_task_L w t : L w -> L (get_or_create_task_node w t) /\ mono w (get_or_create_task_node w t). Proof. exact (goc_L w (tn t)). Qed.
Lemma goc_res_L w r : L w -> L (get_or_create_resource_node w r) /\ mono w (get_or_create_resource_node w r). Proof. exact (goc_L w (rn r)). Qed.


Section NBA.
Variable RC : rcid -> rchecker.
Variable OC : ocid -> ochecker.
Variable P : task -> prog.

Notation SP := (StoreOK_preserved RC).

Lemma lstep_L a b : StoreOK a -> lstep a b -> mono a b /\ cur b = cur a /\ queue b = queue a.
Proof. intros H S. destruct (lstep_live a b H S) as [M C]. split; [exact M|split; [exact C|apply (lstep_fields a b S)]]. Qed.

Lemma run_rw_R {X} (o : rwop X) w : L w -> okR w (run_rw RC o w).
Proof.
  intros HL. pose proof (run_rw_chain RC o w) as C. pose proof (rw_chain_NB w _ (proj1 HL) (proj1 (proj2 HL)) C) as NB.
  assert (K : forall w', (mono w w' /\ cur w' = cur w /\ queue w' = queue w) /\ StoreOK w' -> L w' /\ mono w w').
  { intros w' [[M [Cc Q]] S]. split; [apply (L_graph w); assumption|exact M]. }
  assert (Y : match run_rw RC o w with Done _ w' | Abort _ w' => (mono w w' /\ cur w' = cur w /\ queue w' = queue w) /\ StoreOK w' | OutOfFuel => True end).
  { apply (rw_chain_rel (fun a b => mono a b /\ cur b = cur a /\ queue b = queue a)); [| |exact lstep_L|apply HL|exact C].
    - intros a. split; [apply mono_refl|split; reflexivity].
    - intros a b c [M1 [C1 Q1]] [M2 [C2 Q2]]. split; [eapply mono_trans; eassumption|split; congruence]. }
  destruct (run_rw RC o w) as [x w'|k w'|]; cbn [okR]; [apply K, Y|split; [intros ->; apply (NB w'); reflexivity|apply K, Y]|exact Logic.I].
Qed.

Lemma rw_rel {X} (R : world -> world -> Prop) (o : rwop X) w :
  (forall w, R w w) -> (forall a b c, R a b -> R b c -> R a c) -> (forall a b, StoreOK a -> lstep a b -> R a b) ->
  L w -> match run_rw RC o w with Done _ w' | Abort _ w' => R w w' | OutOfFuel => True end.
Proof. intros Rr Rt Hs HL. pose proof (rw_chain_rel R w _ Rr Rt Hs (proj1 HL) (run_rw_chain RC o w)) as Y. destruct (run_rw RC o w); [apply Y|apply Y|exact Logic.I]. Qed.

Lemma reserve_R w t : L w -> live (gr w) (tn t) = true -> okR w (reserve_require_dependency w t).
Proof.
  intros HL Lt. pose proof (pr_reserve _ _ SP w t (proj1 HL)) as S. unfold reserve_require_dependency in *.
  destruct (cur w) as [s|] eqn:Hc; [|cbn; split; [exact HL|mr]].
  pose proof (add_dep_not_bug w (tn s) (tn t) DReserved (proj1 (proj1 HL)) (proj1 (proj2 HL) s Hc) Lt) as NB.
  pose proof (add_dependency_grows w (tn s) (tn t) DReserved (proj1 (proj1 HL))) as [_ [_ M]].
  destruct (add_dependency_gr w (tn s) (tn t) DReserved) as [g Eg].
  destruct (add_dependency w (tn s) (tn t) DReserved) as [[| |] w']; cbn [fst snd okO okR] in *.
  - split; [|exact M]. subst w'. apply (L_graph w); trivial.
  - split; [discriminate|]. destruct S as [S|S]; [discriminate|]. split; [|exact M]. subst w'. apply (L_graph w); trivial.
  - contradiction NB; reflexivity.
Qed.

Lemma update_R w t c st : L w -> okR w (update_require_dependency w t c st).
Proof.
  intros HL. pose proof (pr_update _ _ SP w t c st (proj1 HL)) as S. unfold update_require_dependency in *.
  destruct (cur w) as [s|]; [|cbn; split; [exact HL|mr]].
  destruct (get_edata (gr w) (tn s) (tn t)); cbn [okO okR] in *.
  - assert (M : mono w (set_gr w (insert_edata (gr w) (tn s) (tn t) (DRequire t c st)))) by (intros n X; exact X).
    split; [|exact M]. apply (L_graph w); [exact S|exact M|reflexivity|reflexivity|exact HL].
  - split; [discriminate|]. split; [exact HL|mr].
Qed.

Lemma update_edge w s t c st : StoreOK w -> cur w = Some s -> In (tn t) (kids_of (gr w) (tn s)) ->
  update_require_dependency w t c st = Done tt (set_gr w (insert_edata (gr w) (tn s) (tn t) (DRequire t c st))).
Proof.
  intros H Hc E. unfold update_require_dependency. rewrite Hc. destruct (get_edata (gr w) (tn s) (tn t)) eqn:X; [reflexivity|].
  exfalso. apply (wf_edata _ (proj1 H) (tn s) (tn t)) in E. contradiction.
Qed.

Definition RREQ (req : world -> task -> ocid -> outcome Z) : Prop := forall w t c, L w -> okR w (req w t c).
Definition RMC (mc : world -> task -> outcome Z) : Prop := forall w t, L w -> live (gr w) (tn t) = true -> okR w (mc w t).

Lemma exec_prog_R req : RREQ req -> forall p w, L w -> okR w (exec_prog RC OC req p w).
Proof.
  intros Hreq. induction p as [o| |t c k IH|X o k IH] using prog_rw_ind; intros w Hw.
  - split; [exact Hw|mr].
  - split; [discriminate|]. split; [exact Hw|mr].
  - apply bind_R; [apply Hreq; exact Hw|]. intros o w' Hw' _. apply IH. exact Hw'.
  - rewrite exec_prog_rw. apply bind_R; [apply run_rw_R; exact Hw|]. intros x w' Hw' _. apply IH. exact Hw'.
Qed.

Lemma reset_queue w t : queue (reset_task w t) = queue w. Proof. reflexivity. Qed.

Lemma exec_start_L w t : L w -> live (gr w) (tn t) = true -> L (startw w t) /\ mono w (startw w t).
Proof.
  intros HL Lt. destruct (reset_task_facts w t (proj1 HL)) as [R1 _ R3]. split; [|exact R3]. split; [exact R1|].
  split; [intros x X; cbn in X; inversion X; subst x; apply R3; exact Lt|intros x X; apply R3; apply (proj2 (proj2 HL)); exact X].
Qed.

Lemma execute_with_R req w t : RREQ req -> L w -> live (gr w) (tn t) = true -> okR w (execute_with RC OC P req w t).
Proof.
  intros Hreq HL Lt. unfold execute_with. destruct (exec_start_L w t HL Lt) as [Ls Ms].
  eapply okR_pre; [exact Ms|]. apply bind_R; [apply exec_prog_R; assumption|].
  intros o w3 L3 M3. cbn [okR]. split; [|intros n X; exact X].
  split; [apply (pr_exec_end _ _ SP); apply L3|]. split.
  - intros x X. cbn in X. apply M3, Ms. apply (proj1 (proj2 HL)). exact X.
  - intros x X. apply (proj2 (proj2 L3)). exact X.
Qed.

Lemma require_with_R mc : RMC mc -> RREQ (require_with OC mc).
Proof.
  intros Hmc w t c HL. unfold require_with.
  set (w1 := emit w (ERequireStart t c)).
  destruct (goc_task_L w1 t (L_emit w _ HL)) as [L2 M2]. set (w2 := get_or_create_task_node w1 t) in *.
  assert (Lt : live (gr w2) (tn t) = true) by apply live_goc_task.
  eapply (okR_pre w w2); [exact M2|].
  apply bind_R; [apply reserve_R; assumption|]. intros _ w3 L3 M3.
  apply bind_R; [apply Hmc; [exact L3|apply M3; exact Lt]|]. intros o w4 L4 M4.
  eapply (okR_pre w4 (emit w4 _)); [intros n X; exact X|].
  apply bind_R; [apply update_R; apply L_emit; exact L4|]. intros _ w6 L6 M6. cbn. split; [exact L6|mr].
Qed.

Lemma check_resource_td_L w r c st : L w -> L (snd (check_resource_td RC w r c st)) /\ mono w (snd (check_resource_td RC w r c st)).
Proof. intros HL. unfold check_resource_td. cbn. split; [apply L_emit, L_emit; exact HL|mr]. Qed.

(* what check_deps does with the answer to the check of a recorded read or write; k = the check of the remaining dependencies *)
Definition after_check (k : world -> outcome bool) (x : cres * world) : outcome bool :=
  match x with (Consistent, w1) => k w1 | (Inconsistent, w1) => Done false w1 | (CErr e, w1) => Done false (push_err w1 e) end.

Lemma check_resource_R w r c st k : L w -> (forall w1, L w1 -> okR w1 (k w1)) ->
  okR w (after_check k (check_resource_td RC w r c st)).
Proof.
  intros HL Hk. destruct (check_resource_td_L w r c st HL) as [X M].
  destruct (check_resource_td RC w r c st) as [[| |e] w1]; cbn [snd after_check] in *.
  - eapply okR_pre; [exact M|]. apply Hk; assumption.
  - split; [exact X|exact M].
  - split; [apply L_push_err; exact X|exact M].
Qed.

(* make_task_consistent (top-down) creates the node of its task itself, so nothing is asked of the list ds *)
Lemma check_deps_R mc : (forall w t, L w -> okR w (mc w t)) -> forall ds w, L w -> okR w (check_deps RC OC mc ds w).
Proof.
  intros Hmc. induction ds as [|d tl IH]; intros w HL; cbn [check_deps]; [split; [exact HL|mr]|].
  destruct d as [[|t c st|r c st|r c st]|]; try (split; [discriminate|]; split; [exact HL|mr]).
  - apply (okR_pre w (emit w (ECheckTaskStart t c st))); [mr|].
    apply bind_R; [apply Hmc; apply L_emit; exact HL|]. intros o w2 L2 _.
    destruct (oc_check (OC c) o st).
    + apply (okR_pre w2 (emit w2 (ECheckTaskEnd t c st (negb true)))); [mr|]. apply IH. apply L_emit; exact L2.
    + split; [apply L_emit; exact L2|mr].
  - apply (check_resource_R w r c st (check_deps RC OC mc tl) HL). exact IH.
  - apply (check_resource_R w r c st (check_deps RC OC mc tl) HL). exact IH.
Qed.

Lemma make_consistent_td_L fuel : forall w t, L w -> okR w (make_consistent_td RC OC P fuel w t).
Proof.
  induction fuel as [|f IH]; intros w t HL; cbn [make_consistent_td]; [exact Logic.I|].
  destruct (goc_task_L w t HL) as [L0 M0]. set (w0 := get_or_create_task_node w t) in *.
  assert (Lt0 : live (gr w0) (tn t) = true) by apply live_goc_task.
  eapply okR_pre; [exact M0|].
  destruct (memN t (consistent w0)).
  - destruct (get_task_output w0 t); [split; [exact L0|mr]|split; [discriminate|split; [exact L0|mr]]].
  - assert (Hreq : RREQ (require_with OC (make_consistent_td RC OC P f))) by (apply require_with_R; intros w1 t1 L1 _; apply IH; exact L1).
    assert (EX : forall w1, L w1 -> mono w0 w1 ->
              okR w1 (bind (execute_with RC OC P (require_with OC (make_consistent_td RC OC P f)) w1 t) (fun o w2 => Done o (mark_consistent w2 t)))).
    { intros w1 L1 M1. apply bind_R; [apply execute_with_R; [exact Hreq|exact L1|apply M1; exact Lt0]|]. intros o w2 L2 _.
      split; [apply L_mark; exact L2|mr]. }
    destruct (get_task_output w0 t).
    + apply bind_R; [apply check_deps_R; [exact IH|exact L0]|]. intros ok w1 L1 M1.
      destruct (if ok then get_task_output w1 t else None).
      * split; [apply L_mark; exact L1|mr].
      * apply EX; assumption.
    + apply EX; [exact L0|mr].
Qed.
Theorem make_consistent_td_R fuel : RMC (make_consistent_td RC OC P fuel).
Proof. intros w t HL _. apply make_consistent_td_L. exact HL. Qed.

Lemma queue_add_gr w t : gr (queue_add w t) = gr w.
Proof. unfold queue_add. destruct (memN t (queue w)); reflexivity. Qed.

Lemma incoming_src w n p : StoreOK w -> In p (incoming w n) -> live (gr w) (tn (un (fst p))) = true.
Proof.
  intros H Hin. pose proof (proj1 H) as W. destruct p as [u [dp|]]; [|destruct (proj2 (proj2 (incoming_spec (gr w) n W) u None Hin)); reflexivity].
  apply (wf_closed _ W _ n), (wf_edata _ W). cbn [fst]. rewrite (row_of_incoming w n u dp H Hin). discriminate.
Qed.

(* what the scheduling functions queue (Steps.changed_queue, after_queue) are sources of recorded dependencies, so tasks with
   a node (incoming_src) *)
Lemma sstep_L a b : StoreOK a -> sstep a b -> (mono a b /\ cur b = cur a) /\ StoreOK b.
Proof.
  intros H S. split; [split; [|apply (sstep_fields a b S)]|]; destruct S as [a e _|a e|a t|a r]; try (mr || exact H).
  - intros n X. rewrite queue_add_gr. exact X.
  - exact (proj2 (proj2 (lf_grows _ _ _ (leaf_goc_res 0 a r H)))).
  - unfold StoreOK. rewrite queue_add_gr. exact H.
  - apply goc_res_ok. exact H.
Qed.
Lemma sched_L w w' : chain sstep w w' -> L w -> (forall y, In y (queue w') -> In y (queue w) \/ live (gr w) (tn y) = true) -> L w' /\ mono w w'.
Proof.
  intros C HL HQ.
  destruct (chain_rel sstep StoreOK (fun a b => mono a b /\ cur b = cur a) (fun a _ => conj (mono_refl a) eq_refl)
              (fun a b c X Y => conj (mono_trans a b c (proj1 X) (proj1 Y)) (eq_trans (proj2 Y) (proj2 X))) sstep_L w w' C (proj1 HL)) as [[M Cc] S].
  split; [|exact M]. split; [exact S|]. split; [intros t X; rewrite Cc in X; apply M, (proj1 (proj2 HL)), X|].
  intros y Y. apply M. destruct (HQ y Y) as [Z|Z]; [apply (proj2 (proj2 HL)); exact Z|exact Z].
Qed.

Lemma fold_affected_L l w : L w -> L (fold_left (schedule_tasks_affected_by RC) l w) /\ mono w (fold_left (schedule_tasks_affected_by RC) l w).
Proof.
  intros HL. apply sched_L; [apply chain_fold; intros; apply schedule_tasks_affected_by_chain|exact HL|].
  intros y Y. apply changed_queue in Y. destruct Y as [Y|[r [_ [p [Ip Hp]]]]]; [left; exact Y|right].
  destruct Hp as [-> _]. exact (incoming_src w (rn r) p (proj1 HL) Ip).
Qed.
Lemma schedule_tasks_affected_by_L w r : L w -> L (schedule_tasks_affected_by RC w r) /\ mono w (schedule_tasks_affected_by RC w r).
Proof. exact (fold_affected_L [r] w). Qed.

Lemma schedule_after_L w t o : L w -> L (schedule_after RC OC w t o) /\ mono w (schedule_after RC OC w t o).
Proof.
  intros HL. destruct (schedule_after_chain RC OC w t o) as [wm [C E]].
  destruct (sched_L w wm C HL) as [Lm M]; [|rewrite E; split; [apply L_mark; exact Lm|exact M]].
  intros y Y. change (In y (queue (mark_consistent wm t))) in Y. rewrite <- E in Y. apply after_queue in Y.
  destruct Y as [Y|[[r [_ [p [Ip Hp]]]]|[p [Ip Hp]]]]; [left; exact Y|right|right].
  - destruct Hp as [-> _]. exact (incoming_src w (rn r) p (proj1 HL) Ip).
  - destruct Hp as [-> _]. exact (incoming_src w (tn t) p (proj1 HL) Ip).
Qed.

Lemma require_bu_with_R mc : RMC mc -> RREQ (require_bu_with OC mc).
Proof.
  intros Hmc w t c HL. unfold require_bu_with. apply bind_R; [apply require_with_R; assumption|].
  intros o w' L' _. split; [apply L_mark; exact L'|mr].
Qed.



Lemma popped_L w t : L w -> In t (queue w) -> L (popped w t) /\ live (gr w) (tn t) = true.
Proof.
  intros [H1 [H2 H3]] Xt. split; [|apply H3; exact Xt]. split; [exact H1|]. split; [exact H2|].
  intros y Y. apply H3. apply popped_queue in Y. apply Y.
Qed.

Theorem bottom_up_R fuel :
  (forall w t, L w -> live (gr w) (tn t) = true -> okR w (bu_execute_and_schedule RC OC P fuel w t)) /\
  RMC (bu_make_consistent RC OC P fuel) /\
  (forall w t, L w -> okR w (bu_require_scheduled_now RC OC P fuel w t)).
Proof.
  induction fuel as [|f [IH1 [IH2 IH3]]]; [repeat split; intros; exact Logic.I|].
  assert (Hreq : RREQ (require_bu_with OC (bu_make_consistent RC OC P f))) by (apply require_bu_with_R; exact IH2).
  split; [|split].
  - intros w t HL Lt. cbn [bu_execute_and_schedule]. apply bind_R; [apply execute_with_R; assumption|].
    intros o w1 L1 _. cbn [okR]. apply schedule_after_L. exact L1.
  - intros w t HL Lt. cbn [bu_make_consistent]. destruct (memN t (consistent w)).
    + destruct (get_task_output w t); [split; [exact HL|mr]|split; [discriminate|split; [exact HL|mr]]].
    + destruct ((match get_task_output w t with None => true | Some _ => false end) && negb (memN t (queue w)))%bool;
        [apply execute_with_R; assumption|].
      apply bind_R; [apply IH3; exact HL|]. intros r w1 L1 _. destruct r; [split; [exact L1|mr]|].
      destruct (get_task_output w1 t); [split; [exact L1|mr]|split; [discriminate|split; [exact L1|mr]]].
  - intros w t HL. cbn [bu_require_scheduled_now]. destruct (queue w) eqn:Q; [split; [exact HL|mr]|].
    destruct (pop_least_from w t) as [[m w1]|] eqn:X; [|split; [exact HL|mr]].
    destruct (pop_least_popped w t m w1 X) as [Im ->]. destruct (popped_L w m HL Im) as [L1 Lm].
    eapply (okR_pre w (popped w m)); [mr|]. apply bind_R; [apply IH1; [exact L1|exact Lm]|]. intros o w2 L2 _.
    destruct (N.eqb m t); [split; [exact L2|mr]|apply IH3; exact L2].
Qed.

Theorem execute_scheduled_R fuel : forall w, L w -> okR w (execute_scheduled RC OC P fuel w).
Proof.
  induction fuel as [|f IH]; intros w HL; cbn [execute_scheduled]; [exact Logic.I|].
  destruct (queue_pop w) as [[t w1]|] eqn:X; [|split; [exact HL|mr]].
  destruct (queue_pop_popped w t w1 X) as [It ->]. destruct (popped_L w t HL It) as [L1 Lt].
  eapply (okR_pre w (popped w t)); [mr|]. apply bind_R; [apply (proj1 (bottom_up_R f)); [exact L1|exact Lt]|].
  intros _ w2 L2 _. apply IH. exact L2.
Qed.

Variable always : ocid.

Theorem session_require_R fuel w t : L w -> okR w (session_require RC OC P always fuel w t).
Proof.
  intros HL. unfold session_require, require_td.
  assert (L1 : L (emit (set_cur w None) EBuildStart)) by (apply L_emit, L_set_cur_none; exact HL).
  eapply (okR_pre w (emit (set_cur w None) EBuildStart)); [intros n X; exact X|].
  apply bind_R; [apply require_with_R; [apply make_consistent_td_R|exact L1]|]. intros o w2 L2 _.
  split; [apply L_emit; exact L2|mr].
Qed.

Theorem session_bottom_up_R fuel w ch : L w -> okR w (session_bottom_up RC OC P fuel w ch).
Proof.
  intros HL. unfold session_bottom_up. cbv zeta.
  destruct (fold_affected_L ch _ (L_set_queue_nil w HL)) as [L1 M1]. set (w1 := fold_left (schedule_tasks_affected_by RC) ch (set_queue w [])) in *.
  assert (L2 : L (emit (set_cur w1 None) EBuildStart)) by (apply L_emit, L_set_cur_none; exact L1).
  eapply (okR_pre w (emit (set_cur w1 None) EBuildStart)); [intros n X; apply M1; exact X|].
  apply bind_R; [apply execute_scheduled_R; exact L2|]. intros _ w3 L3 _. split; [apply L_emit; exact L3|mr].
Qed.

Lemma L_new_session w : L w -> L (new_session w).
Proof. intros [H1 _]. split; [exact H1|]. split; [intros t X; discriminate|intros t []]. Qed.

End NBA.

(* ExecSession's lifting from the operations of a session to sessions and histories, for passes that allow every operation and
   say of the results only which aborts (ga) may happen *)
Notation sesA HI SI ga := (ExecSession.sesO HI SI (res_ok ga)) (only parsing).
Section Lift.
Variable RC : rcid -> rchecker.
Variable OC : ocid -> ochecker.
Variable P : task -> prog.
Variable always : ocid.
Variables HI SI : world -> Prop.
Variable ga : akind -> Prop.
Hypothesis SI_HI : forall w, SI w -> HI w.
Hypothesis Hreq : forall fuel w t, SI w -> sesA HI SI ga (session_require RC OC P always fuel w t).
Hypothesis Hbu : forall fuel w ch, SI w -> sesA HI SI ga (session_bottom_up RC OC P fuel w ch).
Let all_ops {X} (l : list X) : Forall (fun _ => True) l. Proof. induction l; constructor; trivial. Qed.

Lemma run_session_any fuel ops w : SI w ->
  Forall (res_ok ga) (fst (run_session RC OC P always fuel w ops)) /\ HI (snd (run_session RC OC P always fuel w ops)).
Proof.
  apply (ExecSession.run_session_lift RC OC P always HI SI (res_ok ga) (fun _ _ => True) (fun _ => Logic.I) SI_HI (fun f w t _ => Hreq f w t) (fun f w ch _ => Hbu f w ch)).
  apply all_ops.
Qed.

Hypothesis Hnew : forall w, HI w -> SI (new_session w).
Hypothesis Hedit : forall w r v, HI w -> HI (set_content w r v).
Hypothesis Henv : forall w e, HI w -> HI (set_env w e).

Lemma run_history_any fuel h w : HI w ->
  Forall (Forall (res_ok ga)) (fst (run_history RC OC P always fuel w h)) /\ HI (snd (run_history RC OC P always fuel w h)).
Proof.
  apply (ExecSession.run_history_lift RC OC P always HI SI (res_ok ga) (fun _ _ => True) (fun _ => Logic.I) SI_HI (fun f w t _ => Hreq f w t) (fun f w ch _ => Hbu f w ch) Hnew Hedit Henv).
  induction h as [|[r v|e|ops] tl IH]; constructor; try exact IH; try exact Logic.I. apply all_ops.
Qed.
End Lift.

Section Hist.
Variable RC : rcid -> rchecker.
Variable OC : ocid -> ochecker.
Variable P : task -> prog.
Variable always : ocid.

Definition nb4 (k : akind) : Prop := k <> ABug 4.
Lemma okR_ses {A} w (m : outcome A) : okR w m -> sesA L L nb4 m.
Proof. destruct m; cbn; [intros H; apply H|intros H; split; apply H|trivial]. Qed.
Lemma session_require_ses fuel w t : L w -> sesA L L nb4 (session_require RC OC P always fuel w t).
Proof. intros HL. apply (okR_ses w), session_require_R, HL. Qed.
Lemma session_bottom_up_ses fuel w ch : L w -> sesA L L nb4 (session_bottom_up RC OC P fuel w ch).
Proof. intros HL. apply (okR_ses w), session_bottom_up_R, HL. Qed.

Lemma no_bug4 l : Forall (res_ok nb4) l -> ~ Exists bug4 l.
Proof. intros F. apply Forall_Exists_neg. revert F. apply Forall_impl. intros r H E. unfold bug4 in E. subst r. exact (H eq_refl). Qed.

Lemma run_sop_R fuel w o : L w -> ~ bug4 (fst (run_sop RC OC P always fuel w o)) /\ L (snd (run_sop RC OC P always fuel w o)).
Proof.
  intros HL. pose proof (run_sop_lift RC OC P always L L (res_ok nb4) (fun _ _ => True) (fun _ H => H) (fun f v t _ => session_require_ses f v t) (fun f v ch _ => session_bottom_up_ses f v ch) fuel w o Logic.I HL) as X.
  destruct (run_sop RC OC P always fuel w o) as [[x|k|] w']; cbn [fst snd]; (split; [intros E; inversion E|]).
  - exact X.
  - apply (proj1 X). assumption.
  - apply X.
  - apply X.
Qed.

Lemma run_session_R fuel ops : forall w, L w ->
  ~ Exists bug4 (fst (run_session RC OC P always fuel w ops)) /\ L (snd (run_session RC OC P always fuel w ops)).
Proof.
  intros w HL. destruct (run_session_any RC OC P always L L nb4 (fun _ H => H) session_require_ses session_bottom_up_ses fuel ops w HL) as [F H'].
  split; [apply no_bug4; exact F|exact H'].
Qed.

Theorem run_history_R fuel h : forall w, L w ->
  ~ Exists (Exists bug4) (fst (run_history RC OC P always fuel w h)) /\ L (snd (run_history RC OC P always fuel w h)).
Proof.
  intros w HL. destruct (run_history_any RC OC P always L L nb4 (fun _ H => H) session_require_ses session_bottom_up_ses
    L_new_session L_set_content L_set_env fuel h w HL) as [F H'].
  split; [|exact H']. apply Forall_Exists_neg. revert F. apply Forall_impl. exact no_bug4.
Qed.

Lemma L_init : L init_world.
Proof. split; [exact GOK_empty|]. split; [intros t X; discriminate|intros t []]. Qed.

(* every state reachable by ANY history (top-down, bottom-up, mixed; completed or aborted sessions) satisfies the store
   invariants, and no session of it ever ends with the "node missing" internal error *)
Theorem history_no_bug4 fuel h :
  ~ Exists (Exists bug4) (fst (run_history RC OC P always fuel init_world h)) /\
  StoreOK (snd (run_history RC OC P always fuel init_world h)).
Proof. destruct (run_history_R fuel h init_world L_init) as [A [B _]]. split; assumption. Qed.

End Hist.
