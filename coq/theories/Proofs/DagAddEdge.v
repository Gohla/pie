(* add_edge: the Pearce-Kelly order repair preserves WF, rejects exactly the edges that would close a cycle, a rejected
   insertion leaves the graph exactly as it was, and an accepted one appends the edge to both adjacency orders (C11), and its two
   searches never run out of the model's fuel (hence add_edge_no_fuel, DagRun.v).  All of these are case analyses over
   add_edge_outcome, the list of the ways add_edge can end. *)
From Coq Require Import List NArith Bool Lia Permutation Sorted.
From PieV Require Import Model.Dag Proofs.DagBasics Proofs.DagLib Proofs.DagWF Proofs.DagPath Proofs.DagFuel.
Import ListNotations.
Open Scope N_scope.

(* The rank re-assignment of reorder_nodes: combinatorics of handing the sorted pool of ranks to the backward set and then to
   the forward set, each in old-rank order. *)

Lemma ssorted_trichotomy {A} (R : A -> A -> Prop) l a b :
  StronglySorted R l -> In a l -> In b l -> a = b \/ R a b \/ R b a.
Proof.
  induction l as [|x tl IH]; intros Hs Ha Hb; [destruct Ha|].
  inversion Hs as [|? ? Hs' Hall]; subst. rewrite Forall_forall in Hall.
  destruct Ha as [<-|Ha]; destruct Hb as [<-|Hb].
  - left. reflexivity.
  - right. left. apply Hall. exact Hb.
  - right. right. apply Hall. exact Ha.
  - apply IH; assumption.
Qed.

Lemma ssorted_combine {A B} (R1 : A -> A -> Prop) (R2 : B -> B -> Prop) l1 : forall l2,
  StronglySorted R1 l1 -> StronglySorted R2 l2 ->
  StronglySorted (fun a b => R1 (fst a) (fst b) /\ R2 (snd a) (snd b)) (combine l1 l2).
Proof.
  induction l1 as [|x tl IH]; intros l2 H1 H2; [constructor|].
  destruct l2 as [|y tl2]; [constructor|]. cbn.
  inversion H1 as [|? ? H1' A1]; subst. inversion H2 as [|? ? H2' A2]; subst.
  constructor; [apply IH; assumption|].
  rewrite Forall_forall in *. intros [a b] Hin. cbn. split.
  - apply A1. eapply in_combine_l. exact Hin.
  - apply A2. eapply in_combine_r. exact Hin.
Qed.

Lemma in_combine_exists {A B} (l1 : list A) : forall (l2 : list B), length l1 = length l2 ->
  (forall a, In a l1 -> exists b, In (a, b) (combine l1 l2)) /\ (forall b, In b l2 -> exists a, In (a, b) (combine l1 l2)).
Proof.
  induction l1 as [|x tl IH]; intros [|y tl2] H; try discriminate; [split; intros ? []|]. injection H as H. destruct (IH tl2 H) as [IHa IHb]. cbn.
  split; [intros a [<-|X]; [exists y; left; reflexivity|destruct (IHa a X) as [b Hb]; exists b; right; exact Hb]|].
  intros b [<-|X]; [exists x; left; reflexivity|destruct (IHb b X) as [a Ha]; exists a; right; exact Ha].
Qed.

Fixpoint alook (l : list (node * N)) (k : node) : option N :=
  match l with [] => None | (k', r) :: tl => if N.eqb k' k then Some r else alook tl k end.

Lemma alook_in l k r : NoDup (map fst l) -> In (k, r) l -> alook l k = Some r.
Proof.
  induction l as [|[k' r'] tl IH]; cbn; [intros _ []|]. intros Hn [X|X].
  - injection X as -> ->. rewrite N.eqb_refl. reflexivity.
  - apply NoDup_cons_iff in Hn. destruct Hn as [H1 Hn]. destruct (N.eqb_spec k' k) as [->|]; [|apply IH; assumption].
    exfalso. apply H1. change k with (fst (k, r)). apply in_map. exact X.
Qed.
Lemma alook_none l k : ~ In k (map fst l) -> alook l k = None.
Proof.
  induction l as [|[k' r'] tl IH]; cbn; [reflexivity|]. intros H.
  destruct (N.eqb_spec k' k) as [->|]; [exfalso; apply H; left; reflexivity|]. apply IH. intros X. apply H. right. exact X.
Qed.
Lemma map_fst_combine {A B} (l1 : list A) (l2 : list B) : length l1 = length l2 -> map fst (combine l1 l2) = l1.
Proof. revert l2. induction l1 as [|x tl IH]; intros l2 H; destruct l2; cbn in *; try discriminate; [reflexivity|]. f_equal. apply IH. lia. Qed.

Lemma assign_ranks_get ks : forall l rs m, NoDup ks ->
  get_info_l (assign_ranks l ks rs) m =
  match alook (combine ks rs) m with
  | Some r => option_map (fun i => mkNinfo r (kids i) (pars i)) (get_info_l l m)
  | None => get_info_l l m
  end.
Proof.
  induction ks as [|k tl IH]; intros l rs m Hn; cbn [assign_ranks combine alook]; [reflexivity|].
  destruct rs as [|r rs']; [reflexivity|]. cbn [combine alook]. inversion Hn; subst.
  rewrite IH by assumption. rewrite get_info_upd_l.
  destruct (N.eqb_spec k m) as [->|Hkm].
  - rewrite N.eqb_refl. rewrite alook_none; [reflexivity|].
    intros X. apply H1. apply in_map_iff in X. destruct X as [[a b] [<- X]]. eapply in_combine_l. exact X.
  - destruct (N.eqb_spec m k); [congruence|]. reflexivity.
Qed.
Lemma assign_ranks_ids ks : forall l rs, map fst (assign_ranks l ks rs) = map fst l.
Proof. induction ks as [|k tl IH]; intros l rs; cbn; [reflexivity|]. destruct rs; [reflexivity|]. rewrite IH. apply map_fst_upd. Qed.

Section Reorder.
Variable key : node -> N.           (* the old rank *)
Variables B F : list node.          (* backward / forward change sets as handed over: disjoint, perhaps with repetitions *)
Hypothesis Hdisj : forall x, In x B -> In x F -> False.
Hypothesis Hinj : forall x y, In x B \/ In x F -> In y B \/ In y F -> key x = key y -> x = y.

Let Bs := sort_by key (nodupN B).
Let Fs := sort_by key (nodupN F).
Let K := Bs ++ Fs.
Let P := sort_by (fun r => r) (map key K).

Lemma In_Bs x : In x Bs <-> In x B.
Proof. unfold Bs. rewrite <- (nodupN_In x B). split; intros H; [eapply Permutation_in; [apply sort_by_perm|exact H]|eapply Permutation_in; [apply Permutation_sym, sort_by_perm|exact H]]. Qed.
Lemma In_Fs x : In x Fs <-> In x F.
Proof. unfold Fs. rewrite <- (nodupN_In x F). split; intros H; [eapply Permutation_in; [apply sort_by_perm|exact H]|eapply Permutation_in; [apply Permutation_sym, sort_by_perm|exact H]]. Qed.
Lemma In_K x : In x K <-> In x B \/ In x F.
Proof. unfold K. rewrite in_app_iff, In_Bs, In_Fs. reflexivity. Qed.

Lemma NoDup_Bs : NoDup Bs. Proof. unfold Bs. eapply Permutation_NoDup; [apply Permutation_sym, sort_by_perm|apply nodupN_NoDup]. Qed.
Lemma NoDup_Fs : NoDup Fs. Proof. unfold Fs. eapply Permutation_NoDup; [apply Permutation_sym, sort_by_perm|apply nodupN_NoDup]. Qed.
Lemma NoDup_K : NoDup K.
Proof. unfold K. apply NoDup_app_intro_t; [apply NoDup_Bs|apply NoDup_Fs|]. intros x X Y. apply In_Bs in X. apply In_Fs in Y. eapply Hdisj; eassumption. Qed.

Lemma K_inj x y : In x K -> In y K -> key x = key y -> x = y.
Proof. intros X Y. apply Hinj; apply In_K; assumption. Qed.

Lemma P_perm : Permutation P (map key K). Proof. unfold P. apply sort_by_perm. Qed.
Lemma P_sorted : StronglySorted N.le P.
Proof. unfold P. exact (sort_by_sorted (fun r => r) (map key K)). Qed.
Lemma P_nodup : NoDup P.
Proof. eapply Permutation_NoDup; [apply Permutation_sym, P_perm|]. apply NoDup_map_key; [apply NoDup_K|apply K_inj]. Qed.
Lemma P_length : length P = length K.
Proof. rewrite (Permutation_length P_perm). apply map_length. Qed.
Lemma P_strict : StronglySorted N.lt P.
Proof.
  pose proof P_sorted as S. pose proof P_nodup as D. induction P as [|x tl IH]; [constructor|].
  inversion S as [|? ? S' A]; subst. inversion D as [|? ? Dx D']; subst. constructor; [apply IH; assumption|].
  rewrite Forall_forall in *. intros y Y. specialize (A y Y). assert (x <> y) by (intros ->; contradiction). lia.
Qed.
Lemma In_P p : In p P <-> exists k, In k K /\ key k = p.
Proof.
  split.
  - intros X. apply (Permutation_in _ P_perm) in X. apply in_map_iff in X. destruct X as [k [E Y]]. exists k. split; assumption.
  - intros [k [X <-]]. apply (Permutation_in _ (Permutation_sym P_perm)). apply in_map. exact X.
Qed.

Definition newrank (m : node) : N := match alook (combine K P) m with Some p => p | None => key m end.

Lemma newrank_out m : ~ In m B -> ~ In m F -> newrank m = key m.
Proof.
  intros X Y. unfold newrank. rewrite alook_none; [reflexivity|].
  rewrite map_fst_combine by (symmetry; apply P_length). rewrite In_K. intros [Z|Z]; [exact (X Z)|exact (Y Z)].
Qed.
Lemma newrank_eq m p : In (m, p) (combine K P) -> newrank m = p.
Proof.
  intros Hp. unfold newrank. rewrite (alook_in _ m p); [reflexivity| |exact Hp].
  rewrite map_fst_combine by (symmetry; apply P_length). apply NoDup_K.
Qed.
Lemma newrank_in m : In m K -> In (m, newrank m) (combine K P).
Proof. intros X. destruct (proj1 (in_combine_exists K P (eq_sym P_length)) m X) as [p Hp]. rewrite (newrank_eq m p Hp). exact Hp. Qed.
Lemma newrank_pool m : In m B \/ In m F -> exists k, (In k B \/ In k F) /\ key k = newrank m.
Proof.
  intros X. apply In_K, newrank_in in X. apply in_combine_r, In_P in X. destruct X as [k [X Y]]. exists k. rewrite <- In_K. split; assumption.
Qed.

Definition posrel (k k' : node) : Prop :=
  (In k Bs /\ In k' Fs) \/ (In k Bs /\ In k' Bs /\ key k < key k') \/ (In k Fs /\ In k' Fs /\ key k < key k').

Lemma sorted_strict l : NoDup l -> (forall x y, In x l -> In y l -> key x = key y -> x = y) ->
  sortedk key l -> StronglySorted (fun a b => key a < key b) l.
Proof.
  intros D I S. induction l as [|x tl IH]; [constructor|].
  inversion S as [|? ? S' A]; subst. inversion D as [|? ? Dx D']; subst. constructor.
  - apply IH; try assumption. intros a b X Y. apply I; right; assumption.
  - rewrite Forall_forall in *. intros y Y. specialize (A y Y). cbn in A.
    assert (key x <> key y). { intros E. assert (x = y) by (apply I; [left; reflexivity|right; exact Y|exact E]). subst. contradiction. }
    lia.
Qed.

Lemma K_posrel : StronglySorted posrel K.
Proof.
  assert (SB : StronglySorted (fun a b => key a < key b) Bs).
  { apply sorted_strict; [apply NoDup_Bs| |apply sort_by_sorted]. intros x y X Y. apply K_inj; apply in_or_app; left; assumption. }
  assert (SF : StronglySorted (fun a b => key a < key b) Fs).
  { apply sorted_strict; [apply NoDup_Fs| |apply sort_by_sorted]. intros x y X Y. apply K_inj; apply in_or_app; right; assumption. }
  unfold K. apply ssorted_app.
  - apply (ssorted_weaken _ _ _ SB). intros x y X Y R. right. left. repeat split; assumption.
  - apply (ssorted_weaken _ _ _ SF). intros x y X Y R. right. right. repeat split; assumption.
  - intros x y X Y. left. split; assumption.
Qed.

Lemma combine_sorted :
  StronglySorted (fun a b => posrel (fst a) (fst b) /\ snd a < snd b) (combine K P).
Proof. apply ssorted_combine; [apply K_posrel|apply P_strict]. Qed.

Lemma BF_disj x : In x Bs -> In x Fs -> False.
Proof. intros X Y. apply In_Bs in X. apply In_Fs in Y. eapply Hdisj; eassumption. Qed.
Lemma posrel_asym k k' : posrel k k' -> posrel k' k -> False.
Proof.
  intros [[A B']|[[A [B' C]]|[A [B' C]]]] [[A2 B2]|[[A2 [B2 C2]]|[A2 [B2 C2]]]];
  first [ lia | exact (BF_disj k A B2) | exact (BF_disj k' A2 B') | exact (BF_disj k A2 A) | exact (BF_disj k' B' B2)
        | exact (BF_disj k B2 A) | exact (BF_disj k' B2 B') | exact (BF_disj k A A2) | exact (BF_disj k' B' A2) | exact (BF_disj k' B2 A2) | exact (BF_disj k B2 B') ].
Qed.

Lemma newrank_inj k k' : In k B \/ In k F -> In k' B \/ In k' F -> newrank k = newrank k' -> k = k'.
Proof.
  intros X Y E. apply In_K, newrank_in in X. apply In_K, newrank_in in Y. rewrite E in X.
  destruct (ssorted_trichotomy _ _ _ _ combine_sorted X Y) as [Q|[[_ R]|[_ R]]]; [inversion Q; reflexivity|cbn in R; lia|cbn in R; lia].
Qed.
Lemma newrank_posrel k k' : In k K -> In k' K -> posrel k k' -> newrank k < newrank k'.
Proof.
  intros X Y R. apply newrank_in in X, Y.
  destruct (ssorted_trichotomy _ _ _ _ combine_sorted X Y) as [Q|[[_ R']|[R' _]]]; cbn in *.
  - inversion Q; subst. exfalso. eapply posrel_asym; eassumption.
  - exact R'.
  - exfalso. eapply posrel_asym; eassumption.
Qed.
Lemma newrank_cross k k' : In k B -> In k' F -> newrank k < newrank k'.
Proof. intros X Y. apply newrank_posrel; [apply In_K; left; exact X|apply In_K; right; exact Y|]. left. split; [apply In_Bs|apply In_Fs]; assumption. Qed.
Lemma newrank_same k k' : (In k B /\ In k' B) \/ (In k F /\ In k' F) -> key k < key k' -> newrank k < newrank k'.
Proof.
  intros [[X Y]|[X Y]] R.
  - apply newrank_posrel; [apply In_K; left; exact X|apply In_K; left; exact Y|]. right. left. rewrite !In_Bs. repeat split; assumption.
  - apply newrank_posrel; [apply In_K; right; exact X|apply In_K; right; exact Y|]. right. right. rewrite !In_Fs. repeat split; assumption.
Qed.

Lemma newrank_onto k : In k B \/ In k F -> exists x, (In x B \/ In x F) /\ newrank x = key k.
Proof.
  intros X. apply In_K in X. destruct (proj2 (in_combine_exists K P (eq_sym P_length)) (key k)) as [x Hx]; [apply In_P; exists k; split; [exact X|reflexivity]|].
  exists x. split; [apply In_K; exact (in_combine_l _ _ _ _ Hx)|exact (newrank_eq x _ Hx)].
Qed.
Lemma newrank_reflect x k : In x B \/ In x F -> In k B \/ In k F -> newrank x < newrank k -> posrel x k.
Proof.
  intros X Y Lt. apply In_K in X, Y.
  destruct (ssorted_trichotomy _ _ _ _ K_posrel X Y) as [->|[R|R]]; [lia|exact R|]. pose proof (newrank_posrel k x Y X R). lia.
Qed.

Lemma before_B x k : In k B -> posrel x k -> In x B /\ key x < key k.
Proof.
  intros Hk. apply In_Bs in Hk. intros [[_ Z]|[[Bx [_ Lt]]|[_ [Z _]]]]; [destruct (BF_disj k Hk Z)|split; [apply In_Bs; exact Bx|exact Lt]|destruct (BF_disj k Hk Z)].
Qed.
Lemma after_F k x : In k F -> posrel k x -> In x F /\ key k < key x.
Proof.
  intros Hk. apply In_Fs in Hk. intros [[Z _]|[[Z _]|[_ [Fx Lt]]]]; [destruct (BF_disj k Z Hk)|destruct (BF_disj k Z Hk)|split; [apply In_Fs; exact Fx|exact Lt]].
Qed.

(* A node of the backward set cannot move up: the node that got its old rank (newrank_onto) would stand before it in [posrel]
   (newrank_reflect), so be in the backward set with a smaller old rank, and have moved up itself; dually for the forward set. *)
Lemma newrank_B_le k : In k B -> newrank k <= key k.
Proof.
  remember (key k) as r eqn:E. revert k E. induction (N.lt_wf_0 r) as [r _ IH]. intros k -> Hk.
  destruct (N.le_gt_cases (newrank k) (key k)) as [Le|Gt]; [exact Le|exfalso].
  destruct (newrank_onto k (or_introl Hk)) as [x [Kx E]]. rewrite <- E in Gt.
  destruct (before_B x k Hk (newrank_reflect x k Kx (or_introl Hk) Gt)) as [Bx Lt].
  pose proof (IH (key x) Lt x eq_refl Bx). lia.
Qed.

Lemma newrank_F_ge k : In k F -> key k <= newrank k.
Proof.
  (* the descent goes up: below the largest old rank *)
  set (top := fold_right N.max 0 (map key K)).
  assert (Top : forall x, In x K -> key x <= top).
  { intros x X. apply (in_map key) in X. unfold top. induction (map key K) as [|y tl IHl]; [destruct X|]. cbn [fold_right].
    destruct X as [->|X]; [apply N.le_max_l|]. apply (N.le_trans _ _ _ (IHl X)), N.le_max_r. }
  remember (key k) as r eqn:E. revert k E. induction (N.gt_wf top r) as [r _ IH]. intros k -> Hk.
  destruct (N.le_gt_cases (key k) (newrank k)) as [Le|Gt]; [exact Le|exfalso].
  destruct (newrank_onto k (or_intror Hk)) as [x [Kx E]]. rewrite <- E in Gt.
  destruct (after_F k x Hk (newrank_reflect k x (or_intror Hk) Kx Gt)) as [Fx Lt].
  pose proof (IH (key x) (conj Lt (Top x (proj2 (In_K x) Kx))) x eq_refl Fx). lia.
Qed.

End Reorder.

Section ReorderNodes.
Context {ED : Type}.
Implicit Types g : dag ED.

Lemma assign_ranks_shape ks : forall l rs m, exists r : ninfo -> N,
  get_info_l (assign_ranks l ks rs) m = option_map (fun i => mkNinfo (r i) (kids i) (pars i)) (get_info_l l m).
Proof.
  induction ks as [|k tl IH]; intros l rs m; cbn [assign_ranks].
  - exists rank. destruct (get_info_l l m) as [[]|]; reflexivity.
  - destruct rs as [|r rs']; [exists rank; destruct (get_info_l l m) as [[]|]; reflexivity|].
    destruct (IH (upd_info_l l k (fun i => mkNinfo r (kids i) (pars i))) rs' m) as [r0 H0]. rewrite H0, get_info_upd_l.
    destruct (N.eqb m k); [|exists r0; reflexivity].
    exists (fun i => r0 (mkNinfo r (kids i) (pars i))). destruct (get_info_l l m); reflexivity.
Qed.

Lemma reorder_nodes_adj g cf cb :
  let g' := reorder_nodes g cf cb in
  (forall m, live g' m = live g m) /\ (forall m, kids_of g' m = kids_of g m) /\ (forall m, pars_of g' m = pars_of g m).
Proof.
  cbn zeta. unfold live, kids_of, pars_of, get_info, reorder_nodes. cbn [infos].
  repeat split; intros m;
    match goal with |- context [assign_ranks ?l ?ks ?rs] => destruct (assign_ranks_shape ks l rs m) as [r ->] end;
    destruct (get_info_l (infos g) m); reflexivity.
Qed.

Lemma rank_of_reorder g cf cb m :
  (forall x, In x cb -> In x cf -> False) -> live g m = true ->
  rank_of (reorder_nodes g cf cb) m = newrank (rank_of g) cb cf m.
Proof.
  intros D L. unfold rank_of at 1. unfold reorder_nodes, get_info. cbn [infos].
  rewrite assign_ranks_get.
  - unfold newrank, rank_of, live, get_info in *. destruct (alook _ m); destruct (get_info_l (infos g) m); try discriminate; reflexivity.
  - apply NoDup_K. exact D.
Qed.
End ReorderNodes.

Section AddEdge.
Context {ED : Type}.
Implicit Types g : dag ED.

(* the graph after the edge has been entered in the adjacency sets and the edge data, before any order repair *)
Definition pre_graph g (s d : node) (e : ED) : dag ED :=
  insert_edata
    (upd_info (upd_info g s (fun i => mkNinfo (rank i) (kids_of g s ++ [d]) (pars i)))
              d (fun i => mkNinfo (rank i) (kids i) (pars_of g d ++ [s])))
    s d e.

(* the steps of add_edge up to the searches, whatever follows them: for a new edge between two live nodes the early exits are
   not taken, both set insertions report a new element, and what follows is entered with the two adjacency lists extended *)
Lemma add_edge_prefix {T} g s d (X1 X2 X3 : T) (X4 : dag ED -> T) (K : dag ED -> N -> N -> T) :
  WF g -> live g s = true -> live g d = true -> s <> d -> ~ In d (kids_of g s) ->
  (if negb (live g s) || negb (live g d) then X1
   else if N.eqb s d then X2
   else if memN d (kids_of g s) then X3
   else
     let '(no_prev1, kids') := lhs_insert d (kids_of g s) in
     let g1 := upd_info g s (fun i => mkNinfo (rank i) kids' (pars i)) in
     let ub := rank_of g1 s in
     let '(no_prev, g2) :=
       if no_prev1
       then let '(np2, pars') := lhs_insert s (pars_of g1 d) in
            (np2, upd_info g1 d (fun i => mkNinfo (rank i) (kids i) pars'))
       else (false, g1) in
     let lb := rank_of g2 d in
     if negb no_prev then X4 g2 else K g2 ub lb)
  = K (upd_info (upd_info g s (fun i => mkNinfo (rank i) (kids_of g s ++ [d]) (pars i)))
                d (fun i => mkNinfo (rank i) (kids i) (pars_of g d ++ [s])))
      (rank_of g s) (rank_of g d).
Proof.
  intros W Ls Ld Hsd Hnk.
  assert (Hnp : ~ In s (pars_of g d)) by (intros X; apply (wf_sym g W) in X; tauto).
  rewrite Ls, Ld, (proj2 (N.eqb_neq s d) Hsd), (proj2 (memN_false _ _) Hnk), (lhs_insert_new _ _ Hnk).
  cbv beta iota zeta. rewrite pars_of_upd_keep by reflexivity. rewrite (lhs_insert_new _ _ Hnp).
  cbv beta iota zeta. rewrite !rank_of_upd_keep by reflexivity. reflexivity.
Qed.

Lemma add_edge_unfold g s d e :
  WF g -> live g s = true -> live g d = true -> s <> d -> ~ In d (kids_of g s) ->
  add_edge g s d e =
  let g3 := pre_graph g s d e in
  let ub := rank_of g s in let lb := rank_of g d in
  if N.ltb lb ub then
    match dfs_forward (dfs_fuel g3) g3 ub [d] [] [] with
    | DfsFuel => (AFuel, g3)
    | DfsCycle =>
      (AErr CycleDetected,
       remove_edata (upd_info (upd_info g3 s (fun i => mkNinfo (rank i) (removeN d (kids i)) (pars i)))
                              d (fun i => mkNinfo (rank i) (kids i) (removeN s (pars i)))) s d)
    | DfsOk cf visited =>
      match dfs_backward (dfs_fuel g3) g3 lb [s] visited [] with
      | DfsOk cb _ => (AOk true, reorder_nodes g3 cf cb)
      | _ => (AFuel, g3)
      end
    end
  else (AOk true, g3).
Proof.
  intros W Ls Ld Hsd Hnk.
  (* what follows the prefix is read off the right-hand side: add_edge is then the prefix followed by it, by definition *)
  match goal with |- _ = (let g3 := _ in let ub := _ in let lb := _ in @?B g3 ub lb) =>
    exact (add_edge_prefix g s d _ _ _ (fun g2 => (AOk false, g2)) (fun g2 => B (insert_edata g2 s d e)) W Ls Ld Hsd Hnk) end.
Qed.

Lemma pre_graph_view g s d e :
  live g s = true -> live g d = true -> s <> d ->
  let g3 := pre_graph g s d e in
  map fst (infos g3) = map fst (infos g) /\ last g3 = last g /\ length (infos g3) = length (infos g) /\
  (forall m, live g3 m = live g m) /\ (forall m, rank_of g3 m = rank_of g m) /\
  (forall m, kids_of g3 m = if N.eqb m s then kids_of g s ++ [d] else kids_of g m) /\
  (forall m, pars_of g3 m = if N.eqb m d then pars_of g d ++ [s] else pars_of g m) /\
  (forall u v, get_edata g3 u v = if pair_eqb (s, d) (u, v) then Some e else get_edata g u v).
Proof.
  intros Ls Ld Hsd. cbn zeta. unfold pre_graph.
  set (g1 := upd_info g s (fun i => mkNinfo (rank i) (kids_of g s ++ [d]) (pars i))).
  set (g2 := upd_info g1 d (fun i => mkNinfo (rank i) (kids i) (pars_of g d ++ [s]))).
  repeat split.
  - change (infos (insert_edata g2 s d e)) with (infos g2). unfold g2. rewrite ids_upd. apply ids_upd.
  - change (infos (insert_edata g2 s d e)) with (infos g2). unfold g2. rewrite length_infos_upd. apply length_infos_upd.
  - intros m. change (live (insert_edata g2 s d e) m) with (live g2 m). unfold g2. rewrite live_upd. apply live_upd.
  - intros m. change (rank_of (insert_edata g2 s d e) m) with (rank_of g2 m). unfold g2, g1. rewrite !rank_of_upd_keep by reflexivity. reflexivity.
  - intros m. change (kids_of (insert_edata g2 s d e) m) with (kids_of g2 m). unfold g2. rewrite kids_of_upd_keep by reflexivity.
    unfold g1. rewrite kids_of_upd. destruct (N.eqb_spec m s) as [->|]; [|reflexivity].
    unfold live in Ls. destruct (get_info g s); [reflexivity|discriminate].
  - intros m. change (pars_of (insert_edata g2 s d e) m) with (pars_of g2 m). unfold g2. rewrite pars_of_upd.
    destruct (N.eqb_spec m d) as [->|]; [|apply pars_of_upd_keep; reflexivity].
    unfold g1. rewrite get_info_upd. destruct (N.eqb_spec d s); [congruence|].
    unfold live in Ld. destruct (get_info g d); [reflexivity|discriminate].
  - intros u v. rewrite get_edata_insert. reflexivity.
Qed.

Lemma pre_rank g s d e m : live g s = true -> live g d = true -> s <> d -> rank_of (pre_graph g s d e) m = rank_of g m.
Proof. intros Ls Ld Hsd. apply (pre_graph_view g s d e Ls Ld Hsd). Qed.
Lemma pre_kids g s d e u v :
  live g s = true -> live g d = true -> s <> d ->
  (In v (kids_of (pre_graph g s d e) u) <-> In v (kids_of g u) \/ (u = s /\ v = d)).
Proof.
  intros Ls Ld Hsd. destruct (pre_graph_view g s d e Ls Ld Hsd) as [_ [_ [_ [_ [_ [K _]]]]]]. rewrite K.
  destruct (N.eqb_spec u s) as [->|Hus].
  - rewrite in_app_iff. split; [intros [X|[<-|[]]]; [left; exact X|right; split; reflexivity]|intros [X|[_ ->]]; [left; exact X|right; left; reflexivity]].
  - split; [intros X; left; exact X|intros [X|[E _]]; [exact X|destruct (Hus E)]].
Qed.
Lemma pre_pars g s d e u v :
  live g s = true -> live g d = true -> s <> d ->
  (In u (pars_of (pre_graph g s d e) v) <-> In u (pars_of g v) \/ (u = s /\ v = d)).
Proof.
  intros Ls Ld Hsd. destruct (pre_graph_view g s d e Ls Ld Hsd) as [_ [_ [_ [_ [_ [_ [K _]]]]]]]. rewrite K.
  destruct (N.eqb_spec v d) as [->|Hvd].
  - rewrite in_app_iff. split; [intros [X|[<-|[]]]; [left; exact X|right; split; reflexivity]|intros [X|[-> _]]; [left; exact X|right; left; reflexivity]].
  - split; [intros X; left; exact X|intros [X|[_ E]]; [exact X|destruct (Hvd E)]].
Qed.

Lemma path_to_pre g s d e a b :
  live g s = true -> live g d = true -> s <> d -> path g a b -> path (pre_graph g s d e) a b.
Proof.
  intros Ls Ld Hsd P. induction P as [u v X|u w v X P IH].
  - apply path1. apply pre_kids; [assumption..|left; exact X].
  - eapply pathS; [|exact IH]. apply pre_kids; [assumption..|left; exact X].
Qed.

Lemma infos_ext (l l' : list (node * ninfo)) :
  NoDup (map fst l) -> map fst l' = map fst l -> (forall m, get_info_l l' m = get_info_l l m) -> l' = l.
Proof.
  revert l'. induction l as [|[k i] tl IH]; intros [|[k' i'] tl'] ND Ids G; try discriminate; [reflexivity|].
  cbn in Ids. injection Ids as -> Ids. inversion ND as [|? ? Hk ND']; subst.
  pose proof (G k) as Gk. cbn in Gk. rewrite N.eqb_refl in Gk. injection Gk as ->. f_equal. apply IH; [exact ND'|exact Ids|].
  intros m. specialize (G m). cbn in G. destruct (N.eqb_spec k m) as [E|]; [subst m|exact G].
  rewrite (proj2 (get_info_l_none tl k) Hk). apply get_info_l_none. rewrite Ids. exact Hk.
Qed.

(* the rollback of a rejected insertion: every node info is what it was, and so is the list of edge data *)
Lemma rollback_exact g s d e :
  WF g -> s <> d -> ~ In d (kids_of g s) ->
  remove_edata (upd_info (upd_info (pre_graph g s d e) s (fun i => mkNinfo (rank i) (removeN d (kids i)) (pars i)))
                         d (fun i => mkNinfo (rank i) (kids i) (removeN s (pars i)))) s d = g.
Proof.
  intros W Hsd Hnk.
  assert (Hnp : ~ In s (pars_of g d)) by (intros X; apply (wf_sym g W) in X; tauto).
  pose proof (wf_no_edata g s d W Hnk) as Hed. pose proof (wf_ids g W) as Ids.
  destruct g as [inf ed la fr]. unfold pre_graph, remove_edata, insert_edata, set_edata, upd_info, get_edata, kids_of, pars_of, get_info in *.
  cbn [infos edata last fresh] in *. f_equal.
  - apply infos_ext; [exact Ids|rewrite !map_fst_upd; reflexivity|]. intros m. rewrite !get_info_upd_l.
    destruct (N.eqb_spec m d) as [Emd|Hmd]; destruct (N.eqb_spec m s) as [Ems|Hms]; [congruence|subst m|subst m|reflexivity].
    + destruct (get_info_l inf d) as [[r ks ps]|]; cbn [option_map rank kids pars] in *; [rewrite removeN_app_single by exact Hnp|]; reflexivity.
    + destruct (get_info_l inf s) as [[r ks ps]|]; cbn [option_map rank kids pars] in *; [rewrite removeN_app_single by exact Hnk|]; reflexivity.
  - unfold remove_edata_l at 1. rewrite filter_app. fold (remove_edata_l (remove_edata_l ed (s, d)) (s, d)).
    rewrite !(remove_edata_l_notin ed _ Hed). cbn. rewrite pair_eqb_refl. apply app_nil_r.
Qed.

Lemma pre_graph_structure g s d e :
  WF g -> live g s = true -> live g d = true -> s <> d -> ~ In d (kids_of g s) ->
  let g3 := pre_graph g s d e in
  NoDup (map fst (infos g3)) /\ (forall u, NoDup (kids_of g3 u)) /\ (forall v, NoDup (pars_of g3 v)) /\
  (forall u v, In v (kids_of g3 u) <-> In u (pars_of g3 v)) /\
  (forall u v, In v (kids_of g3 u) -> live g3 u = true /\ live g3 v = true) /\
  (forall u v, get_edata g3 u v <> None <-> In v (kids_of g3 u)) /\
  last g3 = N.of_nat (length (infos g3)).
Proof.
  intros W Ls Ld Hsd Hnk. cbn zeta.
  destruct (pre_graph_view g s d e Ls Ld Hsd) as [V1 [V2 [V3 [V4 [V5 [V6 [V7 V8]]]]]]].
  pose proof (fun u v => pre_kids g s d e u v Ls Ld Hsd) as K. pose proof (fun u v => pre_pars g s d e u v Ls Ld Hsd) as P.
  assert (Hnp : ~ In s (pars_of g d)) by (intros X; apply (wf_sym g W) in X; tauto).
  destruct W as [Wi Wk Wp Ws Wc We Wj Wr Wl Wt].
  split; [rewrite V1; exact Wi|]. split; [|split; [|split; [|split; [|split]]]].
  - intros u. rewrite V6. destruct (N.eqb u s); [apply NoDup_app_single; [apply Wk|exact Hnk]|apply Wk].
  - intros v. rewrite V7. destruct (N.eqb v d); [apply NoDup_app_single; [apply Wp|exact Hnp]|apply Wp].
  - intros u v. rewrite K, P, (Ws u v). reflexivity.
  - intros u v X. apply K in X. rewrite !V4. destruct X as [X|[-> ->]]; [apply Wc; exact X|split; assumption].
  - intros u v. rewrite V8, K, <- We. destruct (pair_eqb (s, d) (u, v)) eqn:X.
    + apply pair_eqb_eq in X. injection X as <- <-. split; [intros _; right; split; reflexivity|discriminate].
    + apply pair_eqb_neq in X. split; [left; assumption|]. intros [Y|[-> ->]]; [exact Y|congruence].
  - rewrite V2, V3. exact Wl.
Qed.

Lemma FW_pre_graph g s d (e : ED) : WF g -> live g s = true -> live g d = true -> s <> d -> ~ In d (kids_of g s) -> FW (pre_graph g s d e).
Proof.
  intros W Ls Ld Hsd Hnk. destruct (pre_graph_structure g s d e W Ls Ld Hsd Hnk) as [S1 [S2 [S3 [S4 [S5 [S6 _]]]]]].
  constructor; [exact S1|exact S2|exact S3|exact S4|exact S5|]. intros u v X. apply S6. exact X.
Qed.

Lemma WF_pre_graph_ordered g s d e :
  WF g -> live g s = true -> live g d = true -> s <> d -> ~ In d (kids_of g s) ->
  rank_of g s < rank_of g d -> WF (pre_graph g s d e).
Proof.
  intros W Ls Ld Hsd Hnk Hord.
  destruct (pre_graph_structure g s d e W Ls Ld Hsd Hnk) as [S1 [S2 [S3 [S4 [S5 [S6 S7]]]]]].
  destruct (pre_graph_view g s d e Ls Ld Hsd) as [_ [V2 [_ [V4 [V5 _]]]]].
  constructor; [exact S1|exact S2|exact S3|exact S4|exact S5|exact S6| | |exact S7|].
  - intros u v. rewrite !V4, !V5. apply (wf_inj g W).
  - intros u. rewrite V4, V5, V2. apply (wf_range g W).
  - intros u v X. apply (pre_kids g s d e u v Ls Ld Hsd) in X. rewrite !V5.
    destruct X as [X|[-> ->]]; [apply (wf_topo g W); exact X|exact Hord].
Qed.

Lemma forward_closed_no_path g s d cf (R : node -> Prop) :
  WF g -> FInv g (rank_of g s) d R [] cf -> forall x, In x cf -> path g x s -> False.
Proof.
  intros W [[_ [F2 _]] NB].
  assert (G : forall x t, path g x t -> t = s -> In x cf -> False).
  { intros x t P. induction P as [u v X|u w v X P IH]; intros Et Hx; subst; [exact (NB u Hx s X eq_refl)|].
    destruct (F2 u Hx w X (proj2 (N.ltb_lt _ _) (path_rank g w s W P))) as [Z|[[]|[]]]. apply IH; [reflexivity|exact Z]. }
  intros x Hx P. eapply G; [exact P|reflexivity|exact Hx].
Qed.

Section Repair.
Variables (g : dag ED) (s d : node) (e : ED) (cf cb : list node).
Hypotheses (W : WF g) (Ls : live g s = true) (Ld : live g d = true) (Hsd : s <> d) (Hnk : ~ In d (kids_of g s)).
Let g3 := pre_graph g s d e.
Let lb := rank_of g d.
Let ub := rank_of g s.
Hypotheses (FI : FInv g ub d (from g d) [] cf) (BI : BInv g lb s (into g s) cf [] cb).
Let g' := reorder_nodes g3 cf cb.

Let pre_rank m : rank_of g3 m = rank_of g m := pre_rank g s d e m Ls Ld Hsd.
Let pre_kids u v := pre_kids g s d e u v Ls Ld Hsd.

Lemma d_in_cf : In d cf.
Proof. destruct (proj2 (proj2 (proj1 FI)) d (or_introl eq_refl)) as [X|[]]. exact X. Qed.
Lemma s_in_cb : In s cb.
Proof. destruct (proj2 (proj2 BI) s (or_introl eq_refl)) as [X|[]]. exact X. Qed.

Lemma no_back_path : ~ path g d s.
Proof. exact (forward_closed_no_path g s d cf _ W FI d d_in_cf). Qed.

Lemma cf_member x : In x cf -> (x = d \/ path g d x) /\ lb <= rank_of g x < ub /\ live g x = true.
Proof.
  intros X. destruct (proj1 (proj1 FI) x (or_intror X)) as [A' R]. apply N.ltb_lt in R.
  split; [exact A'|]. destruct A' as [->|A']; [split; [fold lb; lia|exact Ld]|].
  pose proof (path_rank g d x W A') as Y. fold lb in Y. split; [lia|apply (path_live g d x W A')].
Qed.
Lemma cb_member x : In x cb -> (x = s \/ path g x s) /\ lb < rank_of g x <= ub /\ live g x = true.
Proof.
  intros X. destruct (proj1 BI x (or_intror X)) as [A' R]. apply N.ltb_lt in R.
  split; [exact A'|]. destruct A' as [->|A']; [split; [fold ub; lia|exact Ls]|].
  pose proof (path_rank g x s W A') as Y. fold ub in Y. split; [lia|apply (path_live g x s W A')].
Qed.
Lemma sets_disjoint x : In x cb -> In x cf -> False.
Proof.
  intros X Y. apply no_back_path. destruct (cf_member x Y) as [[E|A] _]; destruct (cb_member x X) as [[E'|A'] _].
  - destruct (Hsd (eq_trans (eq_sym E') E)).
  - rewrite <- E. exact A'.
  - rewrite <- E'. exact A.
  - eapply path_trans; eassumption.
Qed.

Lemma set_live m : In m cb \/ In m cf -> live g m = true.
Proof. intros [X|X]; [apply cb_member|apply cf_member]; exact X. Qed.
Lemma sets_inj x y : In x cb \/ In x cf -> In y cb \/ In y cf -> rank_of g3 x = rank_of g3 y -> x = y.
Proof. intros X Y. rewrite !pre_rank. apply (wf_inj g W); apply set_live; assumption. Qed.

Lemma new_rank m : live g m = true -> rank_of g' m = newrank (rank_of g3) cb cf m.
Proof.
  intros L. apply rank_of_reorder; [exact sets_disjoint|]. destruct (pre_graph_view g s d e Ls Ld Hsd) as [_ [_ [_ [V _]]]]. rewrite <- L. apply V.
Qed.
Lemma rank_outside m : live g m = true -> ~ In m cb -> ~ In m cf -> rank_of g' m = rank_of g m.
Proof. intros L X Y. rewrite (new_rank m L), <- pre_rank. apply newrank_out; assumption. Qed.
Lemma rank_down m : In m cb -> rank_of g' m <= rank_of g m.
Proof. intros X. rewrite (new_rank m (set_live m (or_introl X))), <- pre_rank. apply (newrank_B_le _ cb cf sets_disjoint sets_inj m X). Qed.
Lemma rank_up m : In m cf -> rank_of g m <= rank_of g' m.
Proof. intros X. rewrite (new_rank m (set_live m (or_intror X))), <- pre_rank. apply (newrank_F_ge _ cb cf sets_disjoint sets_inj m X). Qed.
Lemma rank_cross u v : In u cb -> In v cf -> rank_of g' u < rank_of g' v.
Proof.
  intros X Y. rewrite (new_rank u (set_live u (or_introl X))), (new_rank v (set_live v (or_intror Y))).
  apply (newrank_cross _ cb cf sets_disjoint sets_inj u v X Y).
Qed.
Lemma rank_same u v : (In u cb /\ In v cb) \/ (In u cf /\ In v cf) -> rank_of g u < rank_of g v -> rank_of g' u < rank_of g' v.
Proof.
  intros S R.
  assert (L : (In u cb \/ In u cf) /\ (In v cb \/ In v cf)) by (destruct S as [[X Y]|[X Y]]; [split; left|split; right]; assumption).
  rewrite (new_rank u (set_live u (proj1 L))), (new_rank v (set_live v (proj2 L))).
  apply (newrank_same _ cb cf sets_disjoint sets_inj u v S). rewrite !pre_rank. exact R.
Qed.
Lemma rank_pool m : In m cb \/ In m cf -> exists k, (In k cb \/ In k cf) /\ rank_of g k = rank_of g' m.
Proof.
  intros X. rewrite (new_rank m (set_live m X)).
  destruct (newrank_pool (rank_of g3) cb cf sets_disjoint m X) as [k [K E]]. exists k. rewrite <- E, pre_rank. split; [exact K|reflexivity].
Qed.
Lemma rank_bounds m : In m cb \/ In m cf -> lb <= rank_of g' m <= ub.
Proof. intros X. destruct (rank_pool m X) as [k [[K|K] <-]]; [apply cb_member in K|apply cf_member in K]; lia. Qed.
Lemma rank_mixed u v : In u cb \/ In u cf -> live g v = true -> ~ In v cb -> ~ In v cf -> rank_of g' u <> rank_of g' v.
Proof.
  intros X Lv Y Z E. destruct (rank_pool u X) as [k [K Ek]]. rewrite (rank_outside v Lv Y Z) in E.
  assert (k = v) by (apply (wf_inj g W); [apply set_live; exact K|exact Lv|congruence]). subst k.
  destruct K as [K|K]; [exact (Y K)|exact (Z K)].
Qed.

Lemma leaves_forward u v : In u cf -> ~ In v cf -> In v (kids_of g u) -> ub < rank_of g v.
Proof.
  intros Uf Vf OLD. destruct FI as [[_ [F2 _]] NB]. pose proof (NB u Uf v OLD) as A.
  destruct (N.lt_ge_cases (rank_of g v) ub) as [Z|Z]; [|fold ub in A; lia].
  destruct (F2 u Uf v OLD (proj2 (N.ltb_lt _ _) Z)) as [Q|[[]|[]]]. contradiction.
Qed.
Lemma enters_backward u v : In v cb -> ~ In u cb -> ~ In u cf -> In v (kids_of g u) -> rank_of g u < lb.
Proof.
  intros Vb Ub Uf OLD. destruct BI as [_ [B2 _]]. destruct (wf_closed g W u v OLD) as [Lu _].
  assert (rank_of g u <> lb) by (intros Z; apply Uf; rewrite (wf_inj g W u d Lu Ld Z); exact d_in_cf).
  destruct (N.lt_ge_cases lb (rank_of g u)) as [Z|Z]; [|lia].
  destruct (B2 v Vb u (proj1 (wf_sym g W u v) OLD) (proj2 (N.ltb_lt _ _) Z)) as [Q|[[]|Q]]; contradiction.
Qed.
Lemma stays_or_down u : live g u = true -> ~ In u cf -> rank_of g' u <= rank_of g u.
Proof. intros Lu Uf. destruct (in_dec N.eq_dec u cb) as [Ub|Ub]; [apply rank_down; exact Ub|rewrite rank_outside by assumption; apply N.le_refl]. Qed.
Lemma stays_or_up v : live g v = true -> ~ In v cb -> rank_of g v <= rank_of g' v.
Proof. intros Lv Vb. destruct (in_dec N.eq_dec v cf) as [Vf|Vf]; [apply rank_up; exact Vf|rewrite rank_outside by assumption; apply N.le_refl]. Qed.

Lemma in_sets_dec m : {In m cb \/ In m cf} + {~ In m cb /\ ~ In m cf}.
Proof.
  destruct (in_dec N.eq_dec m cb) as [X|X]; [left; left; exact X|].
  destruct (in_dec N.eq_dec m cf) as [Y|Y]; [left; right; exact Y|right; split; assumption].
Qed.

Lemma WF_reorder : WF g'.
Proof.
  destruct (pre_graph_structure g s d e W Ls Ld Hsd Hnk) as [S1 [S2 [S3 [S4 [S5 [S6 S7]]]]]]. fold g3 in S1, S2, S3, S4, S5, S6, S7.
  destruct (pre_graph_view g s d e Ls Ld Hsd) as [_ [V2 [_ [V4 _]]]]. fold g3 in V2, V4.
  destruct (reorder_nodes_adj g3 cf cb) as [LV [KD PR]]. fold g' in LV, KD, PR.
  assert (IDS : map fst (infos g') = map fst (infos g3)) by apply assign_ranks_ids.
  constructor.
  - rewrite IDS. exact S1.
  - intros u. rewrite KD. apply S2.
  - intros v. rewrite PR. apply S3.
  - intros u v. rewrite KD, PR. apply S4.
  - intros u v. rewrite KD, !LV. apply S5.
  - intros u v. rewrite KD. apply S6.
  - intros u v. rewrite !LV, !V4. intros Lu Lv E.
    destruct (in_sets_dec u) as [Ku|[Ku Ku']]; destruct (in_sets_dec v) as [Kv|[Kv Kv']].
    + rewrite (new_rank u Lu), (new_rank v Lv) in E. exact (newrank_inj _ cb cf sets_disjoint sets_inj u v Ku Kv E).
    + destruct (rank_mixed u v Ku Lv Kv Kv' E).
    + destruct (rank_mixed v u Kv Lu Ku Ku' (eq_sym E)).
    + rewrite (rank_outside u Lu Ku Ku'), (rank_outside v Lv Kv Kv') in E. apply (wf_inj g W); assumption.
  - intros u. rewrite LV, V4. intros Lu. change (last g') with (last g3). rewrite V2.
    destruct (in_sets_dec u) as [Ku|[Ku Ku']]; [|rewrite rank_outside by assumption; apply (wf_range g W u Lu)].
    destruct (rank_pool u Ku) as [k [K <-]]. apply (wf_range g W k (set_live k K)).
  - change (last g') with (last g3). rewrite S7, <- (map_length fst (infos g')), IDS. rewrite map_length. reflexivity.
  - (* the backward set moves down, the forward set up, and nothing else moves *)
    intros u v. rewrite KD. intros X. apply pre_kids in X. destruct X as [OLD|[-> ->]]; [|apply rank_cross; [exact s_in_cb|exact d_in_cf]].
    pose proof (wf_topo g W u v OLD) as Told. destruct (wf_closed g W u v OLD) as [Lu Lv].
    destruct (in_dec N.eq_dec u cf) as [Uf|Uf]; destruct (in_dec N.eq_dec v cb) as [Vb|Vb].
    + exfalso. apply no_back_path. destruct (cf_member u Uf) as [[->|A] _]; destruct (cb_member v Vb) as [[->|B'] _].
      * apply path1. exact OLD.
      * eapply pathS; eassumption.
      * eapply path_snoc; eassumption.
      * eapply path_trans; [eapply path_snoc; eassumption|exact B'].
    + destruct (in_dec N.eq_dec v cf) as [Vf|Vf]; [apply rank_same; [right; split; assumption|exact Told]|].
      rewrite (rank_outside v Lv Vb Vf). apply (N.le_lt_trans _ ub); [apply rank_bounds; right; exact Uf|exact (leaves_forward u v Uf Vf OLD)].
    + destruct (in_dec N.eq_dec u cb) as [Ub|Ub]; [apply rank_same; [left; split; assumption|exact Told]|].
      rewrite (rank_outside u Lu Ub Uf). apply (N.lt_le_trans _ lb); [exact (enters_backward u v Vb Ub Uf OLD)|apply rank_bounds; left; exact Vb].
    + apply (N.le_lt_trans _ (rank_of g u)); [exact (stays_or_down u Lu Uf)|]. apply (N.lt_le_trans _ (rank_of g v)); [exact Told|exact (stays_or_up v Lv Vb)].
Qed.
End Repair.

Lemma searches_spec g s d e :
  WF g -> live g s = true -> live g d = true -> s <> d -> ~ In d (kids_of g s) -> rank_of g d < rank_of g s ->
  let g3 := pre_graph g s d e in
  match dfs_forward (dfs_fuel g3) g3 (rank_of g s) [d] [] [] with
  | DfsOk cf vis =>
      vis = cf /\ FInv g (rank_of g s) d (from g d) [] cf /\
      match dfs_backward (dfs_fuel g3) g3 (rank_of g d) [s] cf [] with
      | DfsOk cb _ => BInv g (rank_of g d) s (into g s) cf [] cb
      | _ => False
      end
  | DfsCycle => path g d s
  | DfsFuel => False
  end.
Proof.
  intros W Ls Ld Hsd Hnk Hlt. cbn zeta.
  destruct (pre_graph_view g s d e Ls Ld Hsd) as [_ [_ [_ [V4 [V5 _]]]]].
  pose proof (FW_pre_graph g s d e W Ls Ld Hsd Hnk) as F.
  pose proof (fun u v => pre_kids g s d e u v Ls Ld Hsd) as V6. pose proof (fun u v => pre_pars g s d e u v Ls Ld Hsd) as V7.
  set (g3 := pre_graph g s d e) in *.
  (* the new edge leaves from the node at the upper bound and enters the node at the lower bound: no search follows it *)
  assert (StepF : forall x c, from g d x -> N.ltb (rank_of g3 x) (rank_of g s) = true -> In c (kids_of g3 x) -> from g d c).
  { intros x c A O C. apply V6 in C. destruct C as [C|[-> _]]; [exact (from_step g d x c A C)|]. rewrite V5, N.ltb_irrefl in O. discriminate. }
  assert (StepB : forall x c, into g s x -> N.ltb (rank_of g d) (rank_of g3 x) = true -> In c (pars_of g3 x) -> into g s c).
  { intros x c A O C. apply V7 in C. destruct C as [C|[_ ->]]; [apply (wf_sym g W) in C; exact (into_step g s x c A C)|]. rewrite V5, N.ltb_irrefl in O. discriminate. }
  assert (Hlt' : N.ltb (rank_of g3 d) (rank_of g s) = true /\ N.ltb (rank_of g d) (rank_of g3 s) = true) by (rewrite !V5; split; apply N.ltb_lt; exact Hlt).
  assert (FI0 : FInv g3 (rank_of g s) d (from g d) [d] []).
  { split; [|intros x []]. apply search_init; [intros x X; exact X|]. intros x [<-|[]]. split; [left; reflexivity|apply Hlt']. }
  pose proof (dfs_forward_spec g3 (rank_of g s) d _ (fw_ids _ F) StepF (dfs_fuel g3) [d] [] FI0 (lifo_single _ _ d [] eq_refl)
                (start_bound _ _ [] _ (kids_sum _ F) d)) as FS.
  destruct (dfs_forward (dfs_fuel g3) g3 (rank_of g s) [d] [] []) as [cf vis| |]; [| |exact FS].
  - (* what was found in the graph with the new edge was found in the graph without it (search_sub) *)
    destruct FS as [-> FI]. split; [reflexivity|]. split.
    { split; [|intros x X c C; rewrite <- V5; apply (proj2 FI x X c), V6; left; exact C].
      exact (search_sub _ (kids_of g) _ _ _ _ _ _ _ (fun c => f_equal (fun r => N.ltb r _) (eq_sym (V5 c)))
               (fun x c C => proj2 (V6 x c) (or_introl C)) (proj1 FI)). }
    assert (BI0 : BInv g3 (rank_of g d) s (into g s) cf [s] []).
    { apply search_init; [intros x X; exact X|]. intros x [<-|[]]. split; [left; reflexivity|apply Hlt']. }
    assert (Hs : memN s cf = false).
    { apply memN_false. intros X. destruct (proj1 (proj1 FI) s (or_intror X)) as [_ Y]. apply N.ltb_lt in Y. rewrite V5 in Y. lia. }
    pose proof (dfs_backward_spec g3 (rank_of g d) s _ cf (fw_ids _ F) StepB (dfs_fuel g3) [s] [] BI0 (lifo_single _ _ s cf Hs)
                  (start_bound _ _ cf _ (pars_sum _ F) s)) as BS. cbn [app] in BS.
    destruct (dfs_backward (dfs_fuel g3) g3 (rank_of g d) [s] cf []) as [cb vis| |]; [|exact BS|exact BS].
    exact (search_sub _ (pars_of g) _ _ _ _ _ _ _ (fun c => f_equal (N.ltb _) (eq_sym (V5 c)))
             (fun x c C => proj2 (V7 c x) (or_introl C)) (proj2 BS)).
  - (* the child of rank ub is the source itself, reached over an old edge *)
    destruct FS as [x [c [[A Hr] [Hc Hrc]]]].
    assert (c = s) by (apply (wf_inj g W); [rewrite <- V4; apply (fw_closed _ F x c Hc)|exact Ls|rewrite <- V5; exact Hrc]). subst c.
    apply V6 in Hc. destruct Hc as [Old|[_ E]]; [|congruence].
    destruct A as [->|A]; [apply path1; exact Old|eapply path_snoc; eassumption].
Qed.

Lemma early_cond g s d :
  live g s = false \/ live g d = false \/ s = d \/ In d (kids_of g s) ->
  (negb (live g s) || negb (live g d)) || N.eqb s d || memN d (kids_of g s) = true.
Proof.
  intros [H|[H|[H|H]]]; [rewrite H; reflexivity|rewrite H, orb_true_r; reflexivity|rewrite (proj2 (N.eqb_eq s d) H)|rewrite (proj2 (memN_In _ _) H)];
    rewrite ?orb_true_r; reflexivity.
Qed.
Lemma add_edge_early_eq g s d e :
  live g s = false \/ live g d = false \/ s = d \/ In d (kids_of g s) ->
  add_edge g s d e = if negb (live g s) || negb (live g d) then (AErr NodeMissing, g)
                     else if N.eqb s d then (AErr CycleDetected, g) else (AOk false, g).
Proof. intros H. unfold add_edge. apply if3_early. apply early_cond. exact H. Qed.

Definition new_edge g (s d : node) : Prop := live g s = true /\ live g d = true /\ s <> d /\ ~ In d (kids_of g s).

Lemma new_edge_dec g s d : {new_edge g s d} + {live g s = false \/ live g d = false \/ s = d \/ In d (kids_of g s)}.
Proof.
  destruct (live g s) eqn:Ls; [|right; left; reflexivity]. destruct (live g d) eqn:Ld; [|right; right; left; reflexivity].
  destruct (N.eq_dec s d) as [E|E]; [right; right; right; left; exact E|].
  destruct (in_dec N.eq_dec d (kids_of g s)) as [X|X]; [right; right; right; right; exact X|]. left. repeat split; assumption.
Qed.

Inductive add_edge_res g s d (e : ED) : ares bool * dag ED -> Prop :=
| aer_missing : live g s = false \/ live g d = false -> add_edge_res g s d e (AErr NodeMissing, g)
| aer_loop : live g s = true -> s = d -> add_edge_res g s d e (AErr CycleDetected, g)
| aer_present : live g s = true -> live g d = true -> s <> d -> In d (kids_of g s) -> add_edge_res g s d e (AOk false, g)
| aer_ordered : new_edge g s d -> rank_of g s < rank_of g d -> add_edge_res g s d e (AOk true, pre_graph g s d e)
| aer_cycle : new_edge g s d -> path g d s -> add_edge_res g s d e (AErr CycleDetected, g)
| aer_repair cf cb :
    new_edge g s d -> rank_of g d < rank_of g s ->
    FInv g (rank_of g s) d (from g d) [] cf -> BInv g (rank_of g d) s (into g s) cf [] cb ->
    add_edge_res g s d e (AOk true, reorder_nodes (pre_graph g s d e) cf cb).

Lemma add_edge_outcome g s d e : WF g -> add_edge_res g s d e (add_edge g s d e).
Proof.
  intros W.
  destruct (live g s) eqn:Ls; [|rewrite add_edge_missing_noop by (left; exact Ls); apply aer_missing; left; exact Ls].
  destruct (live g d) eqn:Ld; [|rewrite add_edge_missing_noop by (right; exact Ld); apply aer_missing; right; exact Ld].
  destruct (N.eq_dec s d) as [<-|Hsd]; [rewrite add_edge_selfloop_noop by exact Ls; apply aer_loop; [exact Ls|reflexivity]|].
  destruct (in_dec N.eq_dec d (kids_of g s)) as [Hk|Hnk].
  { rewrite add_edge_early_eq by (right; right; right; exact Hk). rewrite Ls, Ld, (proj2 (N.eqb_neq s d) Hsd). apply aer_present; assumption. }
  assert (NE : new_edge g s d) by (repeat split; assumption).
  rewrite (add_edge_unfold g s d e W Ls Ld Hsd Hnk). cbn zeta.
  destruct (N.ltb_spec (rank_of g d) (rank_of g s)) as [Hlt|Hge].
  2:{ apply aer_ordered; [exact NE|]. assert (rank_of g s <> rank_of g d) by (intros X; apply Hsd; apply (wf_inj g W); assumption). lia. }
  pose proof (searches_spec g s d e W Ls Ld Hsd Hnk Hlt) as SS. cbn zeta in SS.
  destruct (dfs_forward _ _ _ _ _ _) as [cf vis| |]; [| |destruct SS].
  - destruct SS as [-> [FI SS]]. destruct (dfs_backward _ _ _ _ _ _) as [cb vis| |]; [|destruct SS|destruct SS].
    apply aer_repair; assumption.
  - rewrite rollback_exact by assumption. apply aer_cycle; assumption.
Qed.

Lemma add_edge_early g s d e :
  (live g s = false \/ live g d = false \/ s = d \/ In d (kids_of g s)) ->
  snd (add_edge g s d e) = g /\ fst (add_edge g s d e) <> AFuel /\
  (fst (add_edge g s d e) = AErr CycleDetected <-> live g s = true /\ live g d = true /\ s = d).
Proof.
  intros H. rewrite (add_edge_early_eq g s d e H).
  destruct (live g s); [|repeat split; try discriminate; intros [X _]; discriminate].
  destruct (live g d); [|repeat split; try discriminate; intros [_ [X _]]; discriminate]. cbn [negb orb].
  destruct (N.eqb_spec s d) as [->|Hsd]; repeat split; try discriminate; tauto.
Qed.

Theorem add_edge_WF g s d e : WF g -> WF (snd (add_edge g s d e)).
Proof.
  intros W. destruct (add_edge_outcome g s d e W) as [ | | |[Ls [Ld [Hsd Hnk]]] Ho| |cf cb [Ls [Ld [Hsd Hnk]]] Hlt FI BI]; cbn [snd]; try exact W.
  - apply WF_pre_graph_ordered; assumption.
  - apply WF_reorder; assumption.
Qed.

Theorem add_edge_cycle_iff g s d e :
  WF g -> live g s = true -> live g d = true ->
  (fst (add_edge g s d e) = AErr CycleDetected <-> s = d \/ path g d s).
Proof.
  intros W Ls Ld.
  destruct (add_edge_outcome g s d e W) as [[X|X]|_ E|_ _ Hsd Hk|[_ [_ [Hsd _]]] Ho|NE P|cf cb [_ [_ [Hsd _]]] Hlt FI BI]; cbn [fst].
  - congruence.
  - congruence.
  - split; [intros _; left; exact E|reflexivity].
  - split; [discriminate|]. intros [E|P]; [destruct (Hsd E)|]. destruct (WF_acyclic g s W). eapply pathS; eassumption.
  - split; [discriminate|]. intros [E|P]; [destruct (Hsd E)|]. pose proof (path_rank g d s W P). lia.
  - split; [intros _; right; exact P|reflexivity].
  - split; [discriminate|]. intros [E|P]; [destruct (Hsd E)|]. destruct (no_back_path g s d cf W FI P).
Qed.

Theorem add_edge_reject_noop g s d e err :
  WF g -> fst (add_edge g s d e) = AErr err -> snd (add_edge g s d e) = g.
Proof. intros W. destruct (add_edge_outcome g s d e W); cbn [fst snd]; intros R; (reflexivity || discriminate). Qed.

(* what an accepted insertion does to the edge set, the edge data and the iteration order -- exactly (C11: "iterated in order of
   first insertion, carrying the data given at that insertion") *)
Theorem add_edge_view g s d e :
  WF g ->
  match fst (add_edge g s d e) with
  | AOk true =>
      (* a new edge: appended at the END of both adjacency orders, with the given data; nothing else changes *)
      let g' := snd (add_edge g s d e) in
      ~ In d (kids_of g s) /\
      (forall m, live g' m = live g m) /\
      (forall m, kids_of g' m = if N.eqb m s then kids_of g s ++ [d] else kids_of g m) /\
      (forall m, pars_of g' m = if N.eqb m d then pars_of g d ++ [s] else pars_of g m) /\
      (forall u v, get_edata g' u v = if pair_eqb (s, d) (u, v) then Some e else get_edata g u v)
  | AOk false => snd (add_edge g s d e) = g /\ In d (kids_of g s)          (* existing edge: position and data kept *)
  | AErr _ => snd (add_edge g s d e) = g
  | AFuel => False
  end.
Proof.
  intros W.
  destruct (add_edge_outcome g s d e W) as [ | |_ _ _ Hk|[Ls [Ld [Hsd Hnk]]] _| |cf cb [Ls [Ld [Hsd Hnk]]] _ _ _]; cbn [fst snd]; try reflexivity.
  - split; [reflexivity|exact Hk].
  - destruct (pre_graph_view g s d e Ls Ld Hsd) as [_ [_ [_ [V4 [_ [V6 [V7 V8]]]]]]]. repeat split; assumption.
  - (* reorder_nodes only changes ranks *)
    destruct (pre_graph_view g s d e Ls Ld Hsd) as [_ [_ [_ [V4 [_ [V6 [V7 V8]]]]]]].
    destruct (reorder_nodes_adj (pre_graph g s d e) cf cb) as [LV [KD PR]].
    split; [exact Hnk|]. repeat split.
    + intros m. rewrite LV. apply V4.
    + intros m. rewrite KD. apply V6.
    + intros m. rewrite PR. apply V7.
    + exact V8.
Qed.

End AddEdge.
