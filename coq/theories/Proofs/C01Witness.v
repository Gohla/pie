(* Non-vacuity of the C01 theorem: exact checkers and a two-task program (a generator and its consumer) satisfy every
   hypothesis, and a concrete history (build, external change of the generator's input, build again) satisfies the premises;
   the incremental session re-executes both tasks and returns what the from-scratch session returns. *)
From Coq Require Import List ZArith Lia.
From PieV Require Import Model.Build Proofs.History Proofs.ExecInv Proofs.ExecSession Proofs.Stable Proofs.Sim Proofs.NoAbort
  Proofs.Idem Proofs.SimAll.
Import ListNotations.
Open Scope N_scope.

Definition enc (v : content) : Z := match v with None => 0%Z | Some z => if (0 <=? z)%Z then (2 * z + 1)%Z else (- 2 * z)%Z end.
Lemma enc_inj v v' : enc v = enc v' -> v = v'.
Proof.
  unfold enc. destruct v as [z|], v' as [z'|];
  repeat match goal with |- context [(0 <=? ?x)%Z] => destruct (Z.leb_spec 0 x) end; intros E; try (f_equal; lia).
Qed.
Definition RCx (_ : rcid) : rchecker :=
  mkRc (fun _ _ v => inl (enc v)) (fun _ _ v st => if Z.eqb (enc v) st then Consistent else Inconsistent) enc.
Definition OCx (_ : ocid) : ochecker := mkOc (fun o => o) (fun o st => Z.eqb o st) (fun o => o).
Definition genx (r : res) : option task := if N.eqb r 5 then Some 1 else None.
Definition Px (t : task) : prog :=
  match t with
  | 0 => Req 1 0 (fun _ => Read 5 0 (fun x => match x with inl v => Ret v | inr e => Ret e end))
  | 1 => Read 1 0 (fun x => Write 5 0 (Some (match x with inl v => v + 100 | inr e => e end)%Z) (fun _ => Ret 0%Z))
  | _ => Ret 0%Z
  end.

Lemma HSx : forall c env r v, rc_stamp (RCx c) env r v = inl (enc v). Proof. reflexivity. Qed.
Lemma HCx : forall c env r v v', rc_check (RCx c) env r v' (enc v) = Consistent -> rc_view (RCx c) v' = rc_view (RCx c) v.
Proof. intros c env r v v'. cbn. destruct (Z.eqb_spec (enc v') (enc v)); [intros _; assumption|discriminate]. Qed.
Lemma HWx : forall c env r v v', True -> rc_check (RCx c) env r v' (enc v) = Consistent -> v' = v.
Proof. intros c env r v v' _ H. apply enc_inj. apply (HCx c env r v v' H). Qed.
Lemma HOCx : forall c o o', oc_check (OCx c) o' (oc_stamp (OCx c) o) = true -> oc_view (OCx c) o' = oc_view (OCx c) o.
Proof. intros c o o'. cbn. apply Z.eqb_eq. Qed.
Lemma HWFx : forall t, WFP genx (fun _ => True) t [] (Px t).
Proof.
  intros t. destruct t as [|p]; [|destruct p as [p|p|]]; cbn [Px]; try constructor.
  - intros [].
  - intros v. constructor; [cbn; unfold tn, rn; intros [X|[]]; lia|right; exists 1; split; [reflexivity|left; reflexivity]|].
    intros x. destruct x; constructor.
  - intros [].
  - left. reflexivity.
  - intros v. constructor; [cbn; unfold rn; intros [X|[]]; lia|reflexivity|exact I|]. intros x. constructor.
Qed.

Definition hx : list step := [HEdit 1 (Some 1%Z); HSession [SRequire 0]; HEdit 1 (Some 2%Z)].
Definition opsx : list sop := [SRequire 0].
Notation wx := (snd (run_history RCx OCx Px 0 50 init_world hx)).
Notation rax := (run_session RCx OCx Px 0 50 (new_session wx) opsx).
Notation rbx := (run_session RCx OCx Px 0 50 (new_session (fresh_of wx)) opsx).

Definition is_bug4b (r : sres) : bool := match r with RAbort (ABug 4) => true | _ => false end.
Lemma no_bug4 l : forallb (forallb (fun r => negb (is_bug4b r))) l = true -> ~ Exists (Exists bug4) l.
Proof.
  intros H X. apply Exists_exists in X. destruct X as [rs [I1 X]]. apply Exists_exists in X. destruct X as [r [I2 X]].
  rewrite forallb_forall in H. specialize (H rs I1). rewrite forallb_forall in H. specialize (H r I2). unfold bug4 in X. subst r. discriminate.
Qed.

Example C01_premises :
  td_hist hx /\ td_only opsx /\ ~ Exists (Exists bug4) (fst (run_history RCx OCx Px 0 50 init_world hx)) /\
  Forall is_done (fst rax) /\ Forall is_done (fst rbx).
Proof.
  split; [cbn; tauto|]. split; [exact I|]. split; [apply no_bug4; vm_compute; reflexivity|].
  split; vm_compute; (constructor; [eexists; reflexivity|constructor]).
Qed.
Example C01_nontrivial :
  fst rax = [RDone (Some 211%Z)] /\ execs (rev (trace (snd rax))) = [1; 0] /\
  fst (run_history RCx OCx Px 0 50 init_world hx) = [[]; [RDone (Some 207%Z)]; []].
Proof. vm_compute. split; [reflexivity|split; reflexivity]. Qed.
Example C01_instance : fst rax = fst rbx /\ forall r, get_content (snd rax) r = get_content (snd rbx) r.
Proof.
  destruct C01_premises as [_ [B [C [D E]]]].
  pose proof (SimAll.incremental_equals_scratch_any_history genx (fun _ => True) RCx OCx Px (fun _ _ v => enc v) 0 HSx HWFx HCx HWx HOCx 50 50 hx opsx B) as X.
  cbv zeta in X. exact (X D E).
Qed.


(* the witness is also in the static class of the total theorems: requires go down in ordx, nobody panics *)
Definition ordx (t : task) : nat := match t with 0 => 1%nat | _ => 0%nat end.
Lemma HWOx : forall t, WFO ordx t (Px t).
Proof.
  intros t. destruct t as [|p]; [|destruct p as [p|p|]]; cbn [Px]; try constructor.
  - cbn. lia.
  - intros v. constructor. intros x. destruct x; constructor.
  - intros v. constructor. intros x. constructor.
Qed.
Example C01_total_premises : hist_below ordx 50 hx /\ roots_below ordx 50 opsx.
Proof. cbn. repeat split; lia. Qed.
Example C01_total_instance :
  Forall is_done (fst rax) /\ Forall is_done (fst rbx) /\ fst rax = fst rbx /\ forall r, get_content (snd rax) r = get_content (snd rbx) r.
Proof.
  destruct C01_total_premises as [_ B].
  pose proof (SimAll.incremental_equals_scratch_total_any_history genx (fun _ => True) ordx RCx OCx Px (fun _ _ v => enc v) 0 HSx HWFx HWOx HCx HWx HOCx 50 50 hx opsx B B) as X.
  cbv zeta in X. exact X.
Qed.


(* the exact checkers of the witness are reflexive, so C02's idempotence theorem applies to it as well *)
Lemma HReflx : forall c env r v, rc_check (RCx c) env r v (enc v) = Consistent.
Proof. intros c env r v. cbn. rewrite Z.eqb_refl. reflexivity. Qed.
Lemma HReflOx : forall c o, oc_check (OCx c) o (oc_stamp (OCx c) o) = true.
Proof. intros c o. cbn. apply Z.eqb_refl. Qed.
Example C02_idempotence_instance :
  let r1 := rax in
  let r2 := run_session RCx OCx Px 0 50 (new_session (snd r1)) opsx in
  fst r2 = fst r1 /\ execs (rev (trace (snd r2))) = [].
Proof.
  destruct C01_total_premises as [A B].
  pose proof (second_session_executes_nothing genx (fun _ => True) ordx RCx OCx Px (fun _ _ v => enc v) 0 HSx HWFx HWOx HReflx HReflOx 50 hx opsx A B) as X.
  cbv zeta in X. destruct X as [X1 [X2 _]]. split; assumption.
Qed.
