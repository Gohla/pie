(* C01: an incremental top-down build returns what a build from scratch returns.  Run A on the incremental store and run B of
   the same interpreter on a fresh store with the same resource contents are related by Sim, by induction on the fuel of A.
   A task that A reuses (all recorded dependencies validate) is executed by B, and B's execution follows the recorded run (the
   certificate of Cert.v) because every checker that accepts a new value shows the task the same view of it; a task whose
   validation fails is executed by both, after A has replayed the validated prefix against consistent tasks and unchanged
   resources (Later; content frame of Stable.v). *)
From Coq Require Import List ZArith Bool.
From PieV Require Import Model.Dag Model.Build Proofs.DagLib Proofs.StoreInv Proofs.Local Proofs.Steps Proofs.ExecInv Proofs.ExecSession
  Proofs.Cert Proofs.Stable.
Import ListNotations.
Open Scope N_scope.

Record Sim (a b : world) : Prop := mkSim {
  sim_content : forall r, get_content a r = get_content b r;
  sim_env : env a = env b;
  sim_cons : forall x, memN x (consistent a) = memN x (consistent b);
  sim_out : forall x, memN x (consistent a) = true -> get_task_output a x = get_task_output b x
}.
(* a store in which only tasks of the current session have outputs (a build from scratch) *)
Definition FreshW (b : world) : Prop := forall x, memN x (consistent b) = false -> get_task_output b x = None.
Record Same (w w' : world) : Prop := mkSame {
  same_content : forall r, get_content w' r = get_content w r;
  same_env : env w' = env w;
  same_cons : consistent w' = consistent w;
  same_outs : outs w' = outs w
}.

Lemma Sim_sym a b : Sim a b -> Sim b a.
Proof.
  intros [A B C D]. constructor; [intros r; symmetry; apply A|symmetry; exact B|intros x; symmetry; apply C|].
  intros x X. symmetry. apply D. rewrite C. exact X.
Qed.
Lemma Sim_trans a b c : Sim a b -> Sim b c -> Sim a c.
Proof.
  intros [A1 B1 C1 D1] [A2 B2 C2 D2]. constructor.
  - intros r. rewrite A1. apply A2. - congruence. - intros x. rewrite C1. apply C2.
  - intros x X. rewrite D1 by exact X. apply D2. rewrite <- C1. exact X.
Qed.
Lemma Same_refl w : Same w w. Proof. constructor; reflexivity. Qed.
Lemma Same_trans w1 w2 w3 : Same w1 w2 -> Same w2 w3 -> Same w1 w3.
Proof. intros [A1 B1 C1 D1] [A2 B2 C2 D2]. constructor; [intros r; rewrite A2; apply A1|congruence|congruence|congruence]. Qed.
Lemma Same_Sim w w' : Same w w' -> Sim w w'.
Proof.
  intros [A B C D]. constructor; [intros r; symmetry; apply A|symmetry; exact B|intros x; rewrite C; reflexivity|].
  intros x _. unfold get_task_output. rewrite D. reflexivity.
Qed.
Lemma Sim_same_l a a1 b : Same a a1 -> Sim a b -> Sim a1 b.
Proof. intros X Y. eapply Sim_trans; [apply Sim_sym, Same_Sim; exact X|exact Y]. Qed.
Lemma Sim_same_r a b b1 : Same b b1 -> Sim a b -> Sim a b1.
Proof. intros X Y. eapply Sim_trans; [exact Y|apply Same_Sim; exact X]. Qed.
Lemma FreshW_same b b1 : Same b b1 -> FreshW b -> FreshW b1.
Proof. intros [A B C D] F x X. rewrite C in X. unfold get_task_output. rewrite D. apply F. exact X. Qed.

Lemma Same_goc_task w x : Same w (get_or_create_task_node w x).
Proof. destruct (goc_task_gr w x) as [g ->]. constructor; reflexivity. Qed.
Lemma Same_add_dep w s d dp : Same w (snd (add_dependency w s d dp)).
Proof. destruct (add_dependency_gr w s d dp) as [g ->]. constructor; reflexivity. Qed.
Lemma Same_struct w w' : rstate w' = rstate w -> env w' = env w -> consistent w' = consistent w -> outs w' = outs w -> Same w w'.
Proof. intros A B C D. constructor; try assumption. intros r. unfold get_content. rewrite A. reflexivity. Qed.
Lemma Same_reserve w x c s d : Same w (snd (add_dependency (at_require w x c) s d DReserved)).
Proof.
  eapply Same_trans; [apply (Same_struct w (emit w (ERequireStart x c))); reflexivity|]. eapply Same_trans; [apply Same_goc_task|apply Same_add_dep].
Qed.

Lemma post_fresh S w w' seg : Post S [] [] w w' seg -> FreshW w -> FreshW w'.
Proof.
  intros P1 F x X. destruct (in_dec N.eq_dec x (execs seg)) as [I|NI].
  - destruct (po_cons _ _ _ _ _ _ P1 x I) as [Z|[]]. congruence.
  - destruct (po_others _ _ _ _ _ _ P1 x NI ltac:(intros [])) as [_ [_ O]]. rewrite O. apply F.
    destruct (memN x (consistent w)) eqn:Z; [|reflexivity]. apply (po_mono _ _ _ _ _ _ P1) in Z. congruence.
Qed.
Lemma post_fresh_exec S t w w' seg : Post S [t] [] w w' seg -> get_task_output w t = None -> FreshW w -> FreshW w'.
Proof.
  intros P1 Ho F x X. destruct (in_dec N.eq_dec x (execs seg)) as [I|NI].
  - destruct (po_cons _ _ _ _ _ _ P1 x I) as [Z|[]]. congruence.
  - destruct (N.eq_dec x t) as [->|Hne].
    + rewrite (po_oframe _ _ _ _ _ _ P1) by (right; left; reflexivity). exact Ho.
    + destruct (po_others _ _ _ _ _ _ P1 x NI ltac:(intros [E|[]]; congruence)) as [_ [_ O]]. rewrite O. apply F.
      destruct (memN x (consistent w)) eqn:Z; [|reflexivity]. apply (po_mono _ _ _ _ _ _ P1) in Z. congruence.
Qed.

Lemma post_cons_out S G pend w w' seg y : Post S G pend w w' seg -> ~ In y G -> memN y (consistent w) = true ->
  memN y (consistent w') = true /\ get_task_output w' y = get_task_output w y.
Proof.
  intros P1 NG Y. split; [apply (po_mono _ _ _ _ _ _ P1); exact Y|]. apply (po_others _ _ _ _ _ _ P1 y); [|exact NG].
  intros Z. destruct (po_fresh _ _ _ _ _ _ P1 y Z) as [_ [_ Z']]. congruence.
Qed.

Lemma Sim_wrote2 x y x1 y1 r v : Sim x y -> Wrote x x1 r v -> Wrote y y1 r v -> Sim x1 y1.
Proof.
  intros [C1 C2 C3 C4] [A1 [A2 [A3 [A4 A5]]]] [B1 [B2 [B3 [B4 B5]]]]. constructor.
  - intros r'. destruct (N.eq_dec r' r) as [->|Hne]; [congruence|]. rewrite A2, B2 by exact Hne. apply C1.
  - congruence. - intros z. rewrite A4, B4. apply C3.
  - intros z Z. unfold get_task_output. rewrite A5, B5. apply C4. rewrite A4 in Z. exact Z.
Qed.
Lemma Sim_wrote_l x y x1 r v : Sim x y -> Wrote x x1 r v -> get_content y r = v -> Sim x1 y.
Proof.
  intros [C1 C2 C3 C4] [A1 [A2 [A3 [A4 A5]]]] B. constructor.
  - intros r'. destruct (N.eq_dec r' r) as [->|Hne]; [congruence|]. rewrite A2 by exact Hne. apply C1.
  - congruence. - intros z. rewrite A4. apply C3.
  - intros z Z. unfold get_task_output. rewrite A5. apply C4. rewrite A4 in Z. exact Z.
Qed.
Lemma Sim_wrote_r x y y1 r v : Sim x y -> Wrote y y1 r v -> get_content x r = v -> Sim x y1.
Proof. intros A B C. apply Sim_sym. eapply Sim_wrote_l; [apply Sim_sym; exact A|exact B|exact C]. Qed.
Lemma FreshW_wrote b b1 r v : Wrote b b1 r v -> FreshW b -> FreshW b1.
Proof. intros [_ [_ [_ [B4 B5]]]] F y Y. rewrite B4 in Y. unfold get_task_output. rewrite B5. apply F. exact Y. Qed.

Definition Start (w w2 : world) (t : task) : Prop :=
  (forall r, get_content w2 r = get_content w r) /\ env w2 = env w /\ consistent w2 = consistent w /\
  (forall x, x <> t -> get_task_output w2 x = get_task_output w x) /\ get_task_output w2 t = None.
Lemma Sim_start_r a b b2 t : Sim a b -> memN t (consistent b) = false -> Start b b2 t -> Sim a b2.
Proof.
  intros [C1 C2 C3 C4] Hn [B1 [B2 [B3 [B4 _]]]]. constructor.
  - intros r. rewrite B1. apply C1. - congruence. - intros x. rewrite B3. apply C3.
  - intros x X. rewrite B4; [apply C4; exact X|]. intros ->. rewrite C3 in X. congruence.
Qed.
Lemma Sim_start_l a a2 b t : Sim a b -> memN t (consistent a) = false -> Start a a2 t -> Sim a2 b.
Proof. intros A B C. apply Sim_sym. eapply Sim_start_r; [apply Sim_sym; exact A|exact B|exact C]. Qed.
Lemma FreshW_start b b2 t : Start b b2 t -> FreshW b -> FreshW b2.
Proof.
  intros [_ [_ [B3 [B4 B5]]]] F x X. rewrite B3 in X. destruct (N.eq_dec x t) as [->|Hne]; [exact B5|]. rewrite B4 by exact Hne. apply F. exact X.
Qed.
Definition Fin (w w' : world) (t : task) (o : Z) : Prop :=
  (forall r, get_content w' r = get_content w r) /\ env w' = env w /\
  (forall x, memN x (consistent w') = N.eqb x t || memN x (consistent w)) /\
  (forall x, x <> t -> get_task_output w' x = get_task_output w x) /\ get_task_output w' t = Some o.
Lemma Sim_fin a b a' b' t o : Sim a b -> Fin a a' t o -> Fin b b' t o -> Sim a' b'.
Proof.
  intros [C1 C2 C3 C4] [A1 [A2 [A3 [A4 A5]]]] [B1 [B2 [B3 [B4 B5]]]]. constructor.
  - intros r. rewrite A1, B1. apply C1. - congruence. - intros x. rewrite A3, B3, C3. reflexivity.
  - intros x X. destruct (N.eq_dec x t) as [->|Hne]; [congruence|]. rewrite A4, B4 by exact Hne. apply C4.
    rewrite A3 in X. rewrite (proj2 (N.eqb_neq x t) Hne) in X. exact X.
Qed.
Lemma Fin_exec_end w3 e c1 t o :
  Fin w3 (mark_consistent (set_task_output (set_cur (emit w3 e) c1) t o) t) t o.
Proof.
  split; [reflexivity|]. split; [reflexivity|]. split; [intros x; reflexivity|]. split.
  - intros x Hne. exact (output_set_other _ t o x Hne).
  - exact (output_set_eq _ t o).
Qed.
Lemma Fin_mark w t o : get_task_output w t = Some o -> Fin w (mark_consistent w t) t o.
Proof. intros Ho. split; [reflexivity|]. split; [reflexivity|]. split; [intros x; reflexivity|]. split; [intros; reflexivity|exact Ho]. Qed.
Lemma Start_exec w t : StoreOK w -> Start w (startw w t) t.
Proof.
  intros H. destruct (reset_task_facts w t H) as [_ _ _ _ C1 _ _ _ O0 O1].
  split; [reflexivity|]. split; [reflexivity|]. split; [exact C1|]. split; [intros x Hne; apply O1; exact Hne|exact O0].
Qed.

Section Sm.
Variable gen : res -> option task.
Variable wck : rcid -> Prop.
Variable RC : rcid -> rchecker.
Variable OC : ocid -> ochecker.
Variable P : task -> prog.
Variable sf : rcid -> res -> content -> Z.
Hypothesis HS : forall c env r v, rc_stamp (RC c) env r v = inl (sf c r v).
Hypothesis HWF : forall t, WFP gen wck t [] (P t).
(* a resource checker that accepts a new value shows its reader the same view of it *)
Hypothesis HC : forall c env r v v', rc_check (RC c) env r v' (sf c r v) = Consistent -> rc_view (RC c) v' = rc_view (RC c) v.
(* the checkers guarding writes accept only the written value *)
Hypothesis HW : forall c env r v v', wck c -> rc_check (RC c) env r v' (sf c r v) = Consistent -> v' = v.
(* an output checker that accepts a new output shows the requirer the same view of it *)
Hypothesis HOC : forall c o o', oc_check (OC c) o' (oc_stamp (OC c) o) = true -> oc_view (OC c) o' = oc_view (OC c) o.

Let HNR : forall t, NR [] (P t). Proof. intros t. eapply WFP_NR. apply HWF. Qed.
Notation mc := (make_consistent_td RC OC P).
Notation KK := (K RC OC P sf).

Lemma mc_facts f w t S o w' : StoreOK w -> Inv2 w -> Chain w S -> entry_ok w S t -> mc f w t = Done o w' ->
  (exists seg, Post S [] [] w w' seg) /\ cur w' = cur w /\ memN t (consistent w') = true /\ get_task_output w' t = Some o /\
  CF gen S w w' /\ (KK w -> KK w').
Proof.
  intros H J0 C E Eq. pose proof (make_consistent_td_spec RC OC P f w t S H J0 C E) as A.
  pose proof (make_consistent_td_CF gen wck RC OC P sf HS HWF f w t S H J0 C E) as B.
  pose proof (make_consistent_td_K RC OC P sf HS HNR f w t S H J0 C E) as D.
  rewrite Eq in *. cbn in A, B. destruct A as [A1 [A2 [A3 A4]]].
  split; [exact A1|]. split; [exact A2|]. split; [exact A3|]. split; [exact A4|]. split; [exact B|]. intros X. apply (D X).
Qed.

Lemma req_facts f t S w x c o w' : Pre t S w -> require_with OC (mc f) w x c = Done o w' ->
  Pre t S w' /\ (exists seg, Post S [t] [] w w' seg) /\ (KK w -> KK w').
Proof.
  intros PR Eq.
  pose proof (req_pre t S _ w x c (require_with_spec OC (mc f) t S (make_consistent_td_spec RC OC P f)) PR) as A.
  pose proof (require_with_K RC OC P sf (mc f) t S (make_consistent_td_spec RC OC P f) (make_consistent_td_K RC OC P sf HS HNR f) w x c PR) as D.
  rewrite Eq in *. split; [eapply pre_step; eassumption|]. split; [exact (proj1 A)|]. intros X. apply (D X).
Qed.

(* a require of x by the executing task t that returns: the reservation was recorded (w3), make_task_consistent ran below t and
   returned the output (w4), the reservation was replaced by the dependency; the observable session state is that of w4 *)
Record ReqDone (mc0 : world -> task -> outcome Z) t S w x c o w' w3 w4 : Prop := mkReqDone {
  rd_add : add_dependency (at_require w x c) (tn t) (tn x) DReserved = (AddOk, w3);
  rd_leaf : Leaf t w w3;
  rd_same : Same w w3;
  rd_edge : edge w3 t x;
  rd_chain : Chain w3 (t :: S);
  rd_inv : Inv2 w3;
  rd_mc : mc0 w3 x = Done o w4;
  rd_end : Same w4 w';
  rd_rows : forall a, a <> t -> kidsT w' a = kidsT w4 a /\ forall d, row w' a d = row w4 a d
}.
Lemma req_done mc0 t S w x c o w' : MCspec mc0 -> Pre t S w -> require_with OC mc0 w x c = Done o w' ->
  exists w3 w4, ReqDone mc0 t S w x c o w' w3 w4.
Proof.
  intros HM PR Eq. pose proof (require_with_run OC mc0 t S w x c HM PR) as RR. cbv zeta in RR.
  pose proof (Same_reserve w x c (tn t) (tn x)) as Sw3.
  destruct (add_dependency _ (tn t) (tn x) DReserved) as [[| |] w3] eqn:AD; cbn [snd] in Sw3;
    [|destruct RR as [_ RR]; rewrite RR in Eq; discriminate|rewrite RR in Eq; discriminate].
  destruct RR as [L3 [E3 [C3 [J3 [_ [_ RM]]]]]].
  destruct (mc0 w3 x) as [o4 w4|k w4|] eqn:MA; [|rewrite RM in Eq; discriminate|rewrite RM in Eq; discriminate].
  destruct RM as [_ [_ RM]]. rewrite RM in Eq. inversion Eq; subst o w'. exists w3, w4.
  constructor; [exact AD|exact L3|exact Sw3|exact E3|exact C3|exact J3|exact MA|apply Same_struct; reflexivity|].
  intros a Hne. split; [reflexivity|]. intros d0. unfold row. cbn [gr set_gr emit]. rewrite get_edata_insert.
  destruct (pair_eqb (tn t, tn x) (tn a, d0)) eqn:Z; [|reflexivity]. apply pair_eqb_eq in Z. inversion Z as [[Z1 Z2]]. apply tn_inj in Z1. congruence.
Qed.

Definition SIMMC (f : nat) : Prop :=
  forall f' a b t Sa Sb o a' o' b',
    StoreOK a -> Inv2 a -> KK a -> StoreOK b -> Inv2 b -> FreshW b -> Sim a b ->
    Chain a Sa -> Chain b Sb -> entry_ok a Sa t -> entry_ok b Sb t ->
    mc f a t = Done o a' -> mc f' b t = Done o' b' -> o = o' /\ Sim a' b'.

(* run A makes x consistent below t (validating t, or on behalf of the executing t); run B requires x from the executing t *)
Lemma sim_mc_req f : SIMMC f ->
  forall f' t Sa Sb a b x c o a' ob b',
    StoreOK a -> Inv2 a -> KK a -> Chain a (t :: Sa) -> edge a t x -> Pre t Sb b -> FreshW b -> Sim a b ->
    mc f a x = Done o a' -> require_with OC (mc f') b x c = Done ob b' -> o = ob /\ Sim a' b'.
Proof.
  intros IH f' t Sa Sb a b x c o a' ob b' Ha Ja Ka Ca Ea PB Fb Sab MA EB.
  destruct (req_done (mc f') t Sb b x c ob b' (make_consistent_td_spec RC OC P f') PB EB) as [b3 [b4 [_ LB3 SaB EB3 CB3 JB3 MB SB4 _]]].
  destruct (IH f' a b3 x (t :: Sa) (t :: Sb) o a' ob b4 Ha Ja Ka (lf_ok _ _ _ LB3) JB3 (FreshW_same b b3 SaB Fb)
              (Sim_same_r a b b3 SaB Sab) Ca CB3 Ea EB3 MA MB) as [Eo S4].
  split; [exact Eo|apply (Sim_same_r a' b4 b' SB4 S4)].
Qed.

Lemma sim_req f : SIMMC f ->
  forall f' t Sa Sb a b x c oa a' ob b',
    Pre t Sa a -> KK a -> Pre t Sb b -> FreshW b -> Sim a b ->
    require_with OC (mc f) a x c = Done oa a' -> require_with OC (mc f') b x c = Done ob b' ->
    oa = ob /\ Sim a' b'.
Proof.
  intros IH f' t Sa Sb a b x c oa a' ob b' PA Ka PB Fb Sab EA EB.
  destruct (req_done (mc f) t Sa a x c oa a' (make_consistent_td_spec RC OC P f) PA EA) as [a3 [a4 [_ LA3 SaA EA3 CA3 JA3 MA SA4 _]]].
  destruct (sim_mc_req f IH f' t Sa Sb a3 b x c oa a4 ob b' (lf_ok _ _ _ LA3) JA3 (leaf_K RC OC P sf t a a3 LA3 (pre_out _ _ _ PA) Ka)
              CA3 EA3 PB Fb (Sim_same_l a a3 b SaA Sab) MA EB) as [Eo S4].
  split; [exact Eo|apply (Sim_same_l a4 a' b' SA4 S4)].
Qed.

Lemma req_fresh f t S w x c o w' : Pre t S w -> FreshW w -> require_with OC (mc f) w x c = Done o w' -> FreshW w'.
Proof.
  intros PR F Eq. destruct (req_facts f t S w x c o w' PR Eq) as [_ [[seg P1] _]].
  eapply post_fresh_exec; [exact P1|apply (pre_out _ _ _ PR)|exact F].
Qed.

Lemma rw_facts {X} (op : rwop X) t S w x w1 : Pre t S w -> run_rw RC op w = Done x w1 ->
  x = rw_ans RC op (get_content w (rw_res op)) /\ Pre t S w1 /\ (KK w -> KK w1) /\
  Wrote w w1 (rw_res op) (rw_val op (get_content w (rw_res op))).
Proof.
  intros PR Eq. destruct (run_rw_done RC sf HS op w t x w1 (pre_cur _ _ _ PR) Eq) as [Ex Wr].
  pose proof (run_rw_chain RC op w) as C. rewrite Eq in C. destruct (rw_pre_done t S w x w1 PR C) as [LF PR1].
  split; [exact Ex|]. split; [exact PR1|]. split; [apply (leaf_K RC OC P sf t w w1 LF (pre_out _ _ _ PR))|exact Wr].
Qed.

Lemma sim_exec f : SIMMC f ->
  forall p f' t Sa Sb a b oa a' ob b',
    Pre t Sa a -> KK a -> Pre t Sb b -> FreshW b -> Sim a b ->
    exec_prog RC OC (require_with OC (mc f)) p a = Done oa a' ->
    exec_prog RC OC (require_with OC (mc f')) p b = Done ob b' ->
    oa = ob /\ Sim a' b'.
Proof.
  intros IH. induction p as [o| |x c k IHp|X o k IHp] using prog_rw_ind; intros f' t Sa Sb a b oa a' ob b' PA Ka PB Fb Sab EA EB.
  - inversion EA; inversion EB; subst. split; [reflexivity|exact Sab].
  - discriminate.
  - cbn [exec_prog] in EA, EB.
    apply bind_done in EA as (o1 & a1 & RA & EA). apply bind_done in EB as (o1' & b1 & RB & EB).
    destruct (sim_req f IH f' t Sa Sb a b x c o1 a1 o1' b1 PA Ka PB Fb Sab RA RB) as [Eo S1]. subst o1'.
    destruct (req_facts f t Sa a x c o1 a1 PA RA) as [PA1 [_ KA1]]. destruct (req_facts f' t Sb b x c o1 b1 PB RB) as [PB1 _].
    apply (IHp _ f' t Sa Sb a1 b1 oa a' ob b' PA1 (KA1 Ka) PB1 (req_fresh f' t Sb b x c o1 b1 PB Fb RB) S1 EA EB).
  - (* both runs store the same value: the one written, or for a read the one that both stores hold *)
    rewrite exec_prog_rw in EA, EB.
    apply bind_done in EA as (x1 & a1 & RA & EA). apply bind_done in EB as (x1' & b1 & RB & EB).
    destruct (rw_facts o t Sa a x1 a1 PA RA) as [-> [PA1 [KA1 WA]]]. destruct (rw_facts o t Sb b x1' b1 PB RB) as [-> [PB1 [_ WB]]].
    rewrite <- (sim_content a b Sab (rw_res o)) in EB, WB.
    apply (IHp _ f' t Sa Sb a1 b1 oa a' ob b' PA1 (KA1 Ka) PB1 (FreshW_wrote b b1 _ _ WB Fb) (Sim_wrote2 a b a1 b1 _ _ Sab WA WB) EA EB).
Qed.

Lemma Rep_suffix D p acc o kf : Rep RC OC sf D p acc o kf -> exists rest, kf = acc ++ rest.
Proof.
  induction 1 as [o acc|x c k ox acc o kf HD R [rest E]|r c k v acc o kf HD R [rest E]|r c v k acc o kf HD R [rest E]|r c v k acc o kf HD R [rest E]].
  - exists []. rewrite app_nil_r. reflexivity.
  - exists (tn x :: rest). rewrite E, <- app_assoc. reflexivity.
  - exists (rn r :: rest). rewrite E, <- app_assoc. reflexivity.
  - exists (rn r :: rest). rewrite E, <- app_assoc. reflexivity.
  - exists (rn r :: rest). rewrite E, <- app_assoc. reflexivity.
Qed.
Lemma Rep_rest D p acc o kf d rest : Rep RC OC sf D p (acc ++ [d]) o kf -> kf = acc ++ rest -> exists rest', rest = d :: rest' /\ kf = (acc ++ [d]) ++ rest'.
Proof.
  intros R E. destruct (Rep_suffix _ _ _ _ _ R) as [rest' E']. exists rest'. split; [|exact E'].
  rewrite E' in E. rewrite <- app_assoc in E. apply app_inv_head in E. cbn in E. symmetry. exact E.
Qed.

Lemma req_memo f t S w x c o w' : Pre t S w -> memN x (consistent w) = true ->
  require_with OC (mc f) w x c = Done o w' -> get_task_output w x = Some o /\ Same w w'.
Proof.
  intros PR Hx Eq.
  destruct (req_done (mc f) t S w x c o w' (make_consistent_td_spec RC OC P f) PR Eq) as [w3 [w4 [_ _ Sw3 _ _ _ MA S4 _]]].
  (* x is consistent: make_task_consistent returns its output at once *)
  destruct f as [|f1]; [discriminate MA|]. cbn [make_consistent_td] in MA.
  pose proof (Same_trans w w3 _ Sw3 (Same_goc_task w3 x)) as S0. set (w0 := get_or_create_task_node w3 x) in *.
  rewrite (same_cons _ _ S0), Hx in MA. destruct (get_task_output w0 x) as [o0|] eqn:Ho0; [|discriminate MA]. inversion MA; subst o0 w4.
  split; [unfold get_task_output in *; rewrite <- (same_outs _ _ S0); exact Ho0|apply (Same_trans w w0 w' S0 S4)].
Qed.

Lemma chk_facts f t S ds w ok w' : StoreOK w -> Inv2 w -> Chain w (t :: S) -> (forall d, In d ds -> dep_ok w t d) ->
  check_deps RC OC (mc f) ds w = Done ok w' ->
  (exists seg, Post (t :: S) [] [] w w' seg) /\ CF gen (t :: S) w w' /\ (KK w -> KK w').
Proof.
  intros H J0 C HE Eq.
  pose proof (check_deps_spec RC OC (mc f) t S (make_consistent_td_spec RC OC P f) ds w H J0 C HE) as A.
  assert (B : outCF gen (t :: S) w (check_deps RC OC (mc f) ds w)).
  { eapply check_deps_CF; try eassumption; [apply make_consistent_td_spec|].
    eapply make_consistent_td_CF; eassumption. }
  assert (D : KK w -> outK RC OC P sf (check_deps RC OC (mc f) ds w)).
  { intros X. eapply check_deps_K; try eassumption; [apply make_consistent_td_spec|].
    eapply make_consistent_td_K; eassumption. }
  rewrite Eq in *. split; [exact (proj1 A)|]. split; [exact B|]. intros X. apply (D X).
Qed.

Lemma chk_req_step_a f t Sa a x c st o1 a2 :
  StoreOK a -> Inv2 a -> KK a -> Chain a (t :: Sa) -> edge a t x ->
  mc f (emit a (ECheckTaskStart x c st)) x = Done o1 a2 ->
  forall e3, let a3 := emit a2 e3 in
  StoreOK a3 /\ Inv2 a3 /\ KK a3 /\ Chain a3 (t :: Sa) /\
  (forall d, get_edata (gr a3) (tn t) d = get_edata (gr a) (tn t) d) /\ kids_of (gr a3) (tn t) = kids_of (gr a) (tn t) /\
  cons_mono a a3 /\ memN x (consistent a3) = true /\ get_task_output a3 x = Some o1.
Proof.
  intros H J0 Ka C E MA e3 a3. set (a1 := emit a (ECheckTaskStart x c st)) in *.
  pose proof (chain_same a a1 _ eq_refl C) as C1.
  destruct (mc_facts f a1 x (t :: Sa) o1 a2 H J0 C1 E MA) as [[seg P2] [_ [Hx [Ho [_ Kf]]]]].
  split; [apply (po_ok _ _ _ _ _ _ P2)|]. split; [apply (po_inv _ _ _ _ _ _ P2 J0)|].
  split; [apply (K_same RC OC P sf a2); [reflexivity|reflexivity|apply Kf; apply (K_same RC OC P sf a); [reflexivity|reflexivity|exact Ka]]|].
  split; [exact (chain_same a2 a3 _ eq_refl (chain_post_all a1 a2 (t :: Sa) [] seg C1 P2))|].
  split; [intros d; apply (po_eframe _ _ _ _ _ _ P2); left; reflexivity|].
  split; [apply (po_frame _ _ _ _ _ _ P2); left; reflexivity|].
  split; [apply (po_mono _ _ _ _ _ _ P2)|]. split; [exact Hx|exact Ho].
Qed.

Lemma acc_cons_step (a a3 : world) acc d :
  cons_mono a a3 -> (forall g, In (tn g) acc -> memN g (consistent a) = true) ->
  (forall g, tn g = d -> memN g (consistent a3) = true) ->
  forall g, In (tn g) (acc ++ [d]) -> memN g (consistent a3) = true.
Proof.
  intros M A B g Hg. apply in_app_or in Hg. destruct Hg as [Hg|[Hg|[]]]; [apply M, A; exact Hg|apply B; symmetry; exact Hg].
Qed.

Lemma check_deps_rw {X} (op : rwop X) v mc0 tl a :
  check_deps RC OC mc0 (Some (rw_rec sf op v) :: tl) a =
  match check_resource_td RC a (rw_res op) (rw_checker op) (sf (rw_checker op) (rw_res op) (rw_val op v)) with
  | (Consistent, w1) => check_deps RC OC mc0 tl w1
  | (Inconsistent, w1) => Done false w1
  | (CErr e, w1) => Done false (push_err w1 e)
  end.
Proof. destruct op; reflexivity. Qed.
(* the checker accepts the content v0 against the stamp recorded when the content was v: the operation answers the same,
   and a write would store what is there *)
Lemma validated {X} (op : rwop X) env v0 v : (rw_writes op = true -> wck (rw_checker op)) ->
  rc_check (RC (rw_checker op)) env (rw_res op) v0 (sf (rw_checker op) (rw_res op) (rw_val op v)) = Consistent ->
  rw_ans RC op v0 = rw_ans RC op v /\ rw_val op v0 = v0.
Proof.
  destruct op as [r c|r c v'|r c v']; cbn; intros Hw XX.
  - split; [f_equal; apply (HC c env r v v0 XX)|reflexivity].
  - split; [reflexivity|symmetry; apply (HW c env r v' v0 (Hw eq_refl) XX)].
  - split; [reflexivity|symmetry; apply (HW c env r v' v0 (Hw eq_refl) XX)].
Qed.

(* Validation by run A failed in the store a', or will have failed when run A has gone on to a'.  Run A then executes the
   program again, from a store that looks like a'.  Later f t p a' ob b': whenever it does, it ends as run B ended (output ob,
   store b').  Where validation fails, this is the lockstep of two executions (later_now); a dependency validated before adds
   one step in front, in which run A finds what validation left: the required task is consistent (later_req), the resource holds
   what the operation would store (later_rw). *)
Definition Later f t p a' ob b' : Prop :=
  forall S' ah oa ah', Pre t S' ah -> KK ah -> Sim ah a' ->
    exec_prog RC OC (require_with OC (mc f)) p ah = Done oa ah' -> oa = ob /\ Sim ah' b'.

Lemma later_now f : SIMMC f -> forall p f' t Sb a' b ob b', Pre t Sb b -> FreshW b -> Sim a' b ->
  exec_prog RC OC (require_with OC (mc f')) p b = Done ob b' -> Later f t p a' ob b'.
Proof.
  intros IH p f' t Sb a' b ob b' PB Fb Sab EB S' ah oa ah' PH KH SH EH.
  apply (sim_exec f IH p f' t S' Sb ah b oa ah' ob b' PH KH PB Fb (Sim_trans ah a' b SH Sab) EH EB).
Qed.

Lemma later_req f t x c k a' o1 ob b' : memN x (consistent a') = true -> get_task_output a' x = Some o1 ->
  Later f t (k (oc_view (OC c) o1)) a' ob b' -> Later f t (Req x c k) a' ob b'.
Proof.
  intros Hx Ho L S' ah oa ah' PH KH SH EH. cbn [exec_prog] in EH.
  apply bind_done in EH as (o_h & ah1 & RH & EH).
  assert (Hxh : memN x (consistent ah) = true) by (rewrite (sim_cons _ _ SH); exact Hx).
  destruct (req_memo f t S' ah x c o_h ah1 PH Hxh RH) as [Oh Smh].
  rewrite (sim_out _ _ SH x Hxh), Ho in Oh. inversion Oh; subst o_h.
  destruct (req_facts f t S' ah x c o1 ah1 PH RH) as [PH1 [_ KH1]].
  apply (L S' ah1 oa ah' PH1 (KH1 KH) (Sim_same_l ah ah1 a' Smh SH) EH).
Qed.

Lemma later_rw {X} f t (op : rwop X) k a' ob b' :
  rw_val op (get_content a' (rw_res op)) = get_content a' (rw_res op) ->
  Later f t (k (rw_ans RC op (get_content a' (rw_res op)))) a' ob b' -> Later f t (rw_prog op k) a' ob b'.
Proof.
  intros Ev L S' ah oa ah' PH KH SH EH. rewrite exec_prog_rw in EH.
  apply bind_done in EH as (x_h & ah1 & RH & EH).
  destruct (rw_facts op t S' ah x_h ah1 PH RH) as [-> [PH1 [KH1 WH]]]. rewrite (sim_content _ _ SH) in EH, WH.
  apply (L S' ah1 oa ah' PH1 (KH1 KH)); [|exact EH]. apply (Sim_wrote_l ah a' ah1 _ _ SH WH). symmetry. exact Ev.
Qed.

(* The lockstep: run A validates the recorded dependencies of t (certificate Rep), run B executes t's program.
   If validation succeeds, B's execution reproduces the recorded run (reuse is sound).  If it fails, any later execution
   of the same program suffix by A (from a world equivalent to the one validation ended in) agrees with B's (Later). *)
Lemma sim_chk f : SIMMC f ->
  forall D p acc o0 kf, Rep RC OC sf D p acc o0 kf ->
  forall f' t Sa Sb rest a b ok a' ob b',
    kf = acc ++ rest ->
    (forall d, get_edata (gr a) (tn t) d = D d) -> kids_of (gr a) (tn t) = kf ->
    StoreOK a -> Inv2 a -> KK a -> Chain a (t :: Sa) ->
    (forall d, In d (map D rest) -> dep_ok a t d) ->
    (forall g, In (tn g) acc -> memN g (consistent a) = true) ->
    WFP gen wck t acc p ->
    Pre t Sb b -> FreshW b -> Sim a b ->
    check_deps RC OC (mc f) (map D rest) a = Done ok a' ->
    exec_prog RC OC (require_with OC (mc f')) p b = Done ob b' ->
    (ok = true -> ob = o0 /\ Sim a' b') /\
    (ok = false -> forall S' ah oa ah', Pre t S' ah -> KK ah -> Sim ah a' ->
        exec_prog RC OC (require_with OC (mc f)) p ah = Done oa ah' -> oa = ob /\ Sim ah' b').
Proof.
  intros IH D. refine (Rep_rw_ind RC OC sf D _ _ _ _); [intros o acc|intros x c k ox acc o kf HD R IHR|intros X op k v acc o kf HD R IHR];
    intros f' t Sa Sb rest a b ok a' ob b' Ekf Hrow Hkids Ha Ja Ka Ca Hdo Hacc HW0 PB Fb Sab EA EB.
  - assert (rest = []) by (rewrite <- (app_nil_r acc) in Ekf at 1; apply app_inv_head in Ekf; symmetry; exact Ekf). subst rest.
    cbn in EA, EB. inversion EA; inversion EB; subst. split; [intros _; split; [reflexivity|exact Sab]|discriminate].
  - (* run A makes x consistent (a2), run B requires it (b1) *)
    destruct (Rep_rest D _ acc o kf (tn x) rest R Ekf) as [rest' [-> Ekf']].
    destruct (WFP_req_inv gen wck t acc x c k HW0) as [Hx Hk].
    cbn [map check_deps] in EA. rewrite HD in EA.
    set (st := oc_stamp (OC c) ox) in *.
    assert (Edge : edge a t x).
    { destruct (Hdo (D (tn x)) (or_introl eq_refl)) as [dp [E1 [_ E3]]]. rewrite HD in E1. inversion E1; subst dp. apply (E3 x c st eq_refl). }
    apply bind_done in EA as (o1 & a2 & MA & EA). cbn [exec_prog] in EB. apply bind_done in EB as (o1' & b1 & RB & EB).
    pose proof (chain_same a (emit a (ECheckTaskStart x c st)) _ eq_refl Ca) as C1.
    destruct (sim_mc_req f IH f' t Sa Sb (emit a (ECheckTaskStart x c st)) b x c o1 a2 o1' b1 Ha Ja
                ltac:(apply (K_same RC OC P sf a); [reflexivity|reflexivity|exact Ka]) C1 Edge PB Fb
                ltac:(apply (Sim_same_l a); [apply Same_struct; reflexivity|exact Sab]) MA RB) as [Eo S2]. subst o1'.
    set (e3 := ECheckTaskEnd x c st (negb (oc_check (OC c) o1 st))) in *.
    destruct (chk_req_step_a f t Sa a x c st o1 a2 Ha Ja Ka Ca Edge MA e3) as [Ha3 [Ja3 [Ka3 [Ca3 [Row3 [Kids3 [Mono3 [Hx3 Ho3]]]]]]]].
    set (a3 := emit a2 e3) in *.
    destruct (req_facts f' t Sb b x c o1 b1 PB RB) as [PB1 _]. pose proof (req_fresh f' t Sb b x c o1 b1 PB Fb RB) as Fb1.
    assert (S3 : Sim a3 b1) by (apply (Sim_same_l a2); [apply Same_struct; reflexivity|exact S2]).
    destruct (oc_check (OC c) o1 st) eqn:OK1.
    + (* the dependency validates: both continue along the recorded run; x stays consistent to the end of validation *)
      assert (Ev : oc_view (OC c) o1 = oc_view (OC c) ox) by (apply HOC; exact OK1).
      rewrite Ev in EB.
      assert (Hdo3 : forall d, In d (map D rest') -> dep_ok a3 t d).
      { apply (dep_ok_frame a a3 t); [exact Kids3|]. intros d Hd. apply Hdo. right. exact Hd. }
      destruct (IHR f' t Sa Sb rest' a3 b1 ok a' ob b' Ekf' ltac:(intros d; rewrite Row3; apply Hrow) ltac:(rewrite Kids3; exact Hkids) Ha3 Ja3 Ka3 Ca3 Hdo3
                  ltac:(apply (acc_cons_step a a3 acc (tn x) Mono3 Hacc); intros g Eg; apply tn_inj in Eg; subst g; exact Hx3)
                  (Hk _) PB1 Fb1 S3 EA EB) as [I1 I2].
      split; [exact I1|]. intros Hok.
      destruct (chk_facts f t Sa (map D rest') a3 ok a' Ha3 Ja3 Ca3 Hdo3 EA) as [[seg PR3] _].
      destruct (post_cons_out _ _ _ _ _ _ x PR3 ltac:(intros []) Hx3) as [Hx' Ho'].
      apply (later_req f t x c k a' o1 ob b' Hx'); [rewrite Ho'; exact Ho3|rewrite Ev; exact (I2 Hok)].
    + (* the dependency does not validate: run A will find x consistent, then both execute the rest *)
      inversion EA; subst ok a'. split; [discriminate|]. intros _.
      apply (later_req f t x c k a3 o1 ob b' Hx3 Ho3). apply (later_now f IH _ f' t Sb a3 b1 ob b' PB1 Fb1 S3 EB).
  - (* a read or a write of the resource r: run A checks the recorded stamp, run B performs the operation (b1) *)
    destruct (Rep_rest D _ acc o kf (rn (rw_res op)) rest R Ekf) as [rest' [-> Ekf']].
    destruct (WFP_rw gen wck t acc op k HW0) as [Hx [Hg [Hwc Hk]]].
    cbn [map] in EA. rewrite HD, check_deps_rw in EA. unfold check_resource_td in EA. cbv zeta in EA.
    set (r := rw_res op) in *. set (c := rw_checker op) in *. set (st := sf c r (rw_val op v)) in *.
    set (a1 := emit a (ECheckResStart r c st)) in EA.
    set (xx := rc_check (RC c) (env a1) r (get_content a1 r) st) in EA.
    set (a2 := emit a1 (ECheckResEnd r c st xx)) in EA.
    assert (Sa2 : Same a a2) by (apply Same_struct; reflexivity).
    pose proof (Sim_same_l a a2 b Sa2 Sab) as Sa2b.
    destruct xx as [| |e] eqn:XX; cbv iota beta in EA.
    + (* the checker accepts what the resource holds: the operation answers run B as recorded and stores what is there *)
      rewrite exec_prog_rw in EB. apply bind_done in EB as (x1 & b1 & RB & EB).
      destruct (rw_facts op t Sb b x1 b1 PB RB) as [-> [PB1 [_ WB]]]. fold r in EB, WB.
      rewrite <- (sim_content a b Sab r) in EB, WB.
      destruct (validated op (env a1) (get_content a r) v Hwc XX) as [Ev Eval]. rewrite Ev in EB.
      pose proof (chain_same a a2 _ eq_refl Ca) as Ca2.
      assert (Hdo2 : forall d, In d (map D rest') -> dep_ok a2 t d).
      { apply (dep_ok_frame a a2 t); [reflexivity|]. intros d Hd. apply Hdo. right. exact Hd. }
      destruct (IHR f' t Sa Sb rest' a2 b1 ok a' ob b' Ekf' Hrow Hkids Ha Ja ltac:(apply (K_same RC OC P sf a); [reflexivity|reflexivity|exact Ka])
                  Ca2 Hdo2 ltac:(apply (acc_cons_step a a2 acc (rn r) ltac:(intros y Y; exact Y) Hacc); intros g Eg; exfalso; exact (tn_rn _ _ Eg))
                  (Hk _) PB1 (FreshW_wrote b b1 _ _ WB Fb)
                  ltac:(apply (Sim_wrote_r a2 b b1 r (rw_val op (get_content a r)) Sa2b WB); symmetry; exact Eval) EA EB) as [I1 I2].
      split; [exact I1|]. intros Hok.
      (* r keeps its content to the end of validation: its generator is t, or a task required before *)
      destruct (chk_facts f t Sa (map D rest') a2 ok a' Ha Ja Ca2 Hdo2 EA) as [_ [CF2 _]].
      assert (Ec : get_content a' r = get_content a r).
      { apply (proj1 CF2 r). fold r in Hg. destruct (rw_writes op); [right; exists t; split; [exact Hg|right; left; reflexivity]|].
        destruct Hg as [E|[g [E Ig]]]; [left; exact E|right; exists g; split; [exact E|left; apply Hacc; exact Ig]]. }
      apply (later_rw f t op k a' ob b'); fold r; rewrite Ec; [exact Eval|rewrite Ev; exact (I2 Hok)].
    + inversion EA; subst ok a'. split; [discriminate|]. intros _. apply (later_now f IH _ f' t Sb a2 b ob b' PB Fb Sa2b EB).
    + inversion EA; subst ok a'. split; [discriminate|]. intros _.
      apply (later_now f IH _ f' t Sb (push_err a2 e) b ob b' PB Fb); [|exact EB]. apply (Sim_same_l a2); [apply Same_struct; reflexivity|exact Sa2b].
Qed.

Lemma exec_mark_done req t S w o w' : Top t S w -> exec_mark RC OC P req w t = Done o w' ->
  exists w2 w3, Pre t S w2 /\ Start w w2 t /\ (KK w -> KK w2) /\ exec_prog RC OC req (P t) w2 = Done o w3 /\ Fin w3 w' t o.
Proof.
  intros T Eq. pose proof (top_ok _ _ _ T) as H. unfold exec_mark, execute_with in Eq.
  destruct (exec_prog RC OC req (P t) _) as [o3 w3|k w3|] eqn:X; cbn [bind] in Eq; try discriminate. inversion Eq; subst o w'.
  eexists. exists w3. split; [apply (exec_start_pre t S w T)|]. split; [apply Start_exec; exact H|].
  split; [apply (exec_start_K RC OC P sf w t H)|]. split; [exact X|apply Fin_exec_end].
Qed.

Theorem sim_mc : forall f, SIMMC f.
Proof.
  induction f as [|f IH]; intros f' a b t Sa Sb o a' o' b' Ha Ja Ka Hb Jb Fb Sab Ca Cb Ea Eb MA MB; [discriminate|].
  destruct f' as [|f1]; [discriminate|].
  destruct (mc_course RC OC P f a t Sa (make_consistent_td_spec RC OC P f) Ha Ja Ca Ea) as [_ CA]. rewrite deps_of_task_map in CA.
  destruct (mc_course RC OC P f1 b t Sb (make_consistent_td_spec RC OC P f1) Hb Jb Cb Eb) as [_ CB].
  set (a0 := get_or_create_task_node a t) in *. set (b0 := get_or_create_task_node b t) in *.
  pose proof (K_goc_task RC OC P sf a t Ka) as Ka0. fold a0 in Ka0.
  assert (S0 : Sim a0 b0) by (apply (Sim_same_l a); [apply Same_goc_task|]; apply (Sim_same_r a b); [apply Same_goc_task|exact Sab]).
  pose proof (FreshW_same b b0 (Same_goc_task b t) Fb) as Fb0.
  pose proof (sim_cons _ _ S0 t) as Ect.
  destruct (memN t (consistent a0)) eqn:Hma; rewrite <- Ect in CB.
  - pose proof (sim_out _ _ S0 t Hma) as Eo.
    destruct (get_task_output a0 t) as [oa|]; [|destruct CA]. rewrite <- Eo in CB. rewrite CA in MA. rewrite CB in MB.
    inversion MA; inversion MB; subst. split; [reflexivity|exact S0].
  - (* not consistent: run B executes t (it is fresh, so t has no output) *)
    rewrite (Fb0 t (eq_sym Ect)) in CB. destruct CB as [TB CB]. rewrite CB in MB.
    destruct (exec_mark_done _ t Sb b0 o' b' TB MB) as [b2 [b3 [PB2 [StB [_ [XB FinB]]]]]].
    pose proof (FreshW_start b0 b2 t StB Fb0) as Fb2. pose proof (Sim_start_r a0 b0 b2 t S0 (eq_sym Ect) StB) as S02.
    destruct (get_task_output a0 t) as [o0|] eqn:Hoa.
    + destruct CA as [[Ha0 Ja0 Ca0 _ _ _] [Hdo CA]].
      destruct (check_deps RC OC (mc f) _ a0) as [ok a1|k a1|] eqn:CDA; [|rewrite CA in MA; discriminate..].
      destruct CA as [_ [TA1 [Ho1 CA]]]. rewrite CA in MA.
      destruct (sim_chk f IH (row a0 t) (P t) [] o0 (kidsT a0 t) (Ka0 t o0 Hoa) f1 t Sa Sb (kidsT a0 t) a0 b2 ok a1 o' b3 eq_refl
                  ltac:(intros d; reflexivity) eq_refl Ha0 Ja0 Ka0 Ca0 Hdo ltac:(intros g []) (HWF t) PB2 Fb2 S02 CDA XB) as [Itrue Ifalse].
      destruct (chk_facts f t Sa _ a0 ok a1 Ha0 Ja0 Ca0 Hdo CDA) as [_ [_ K1]].
      destruct ok.
      * (* all validate: run A reuses the output, which run B's execution reproduces *)
        inversion MA; subst o a'. destruct (Itrue eq_refl) as [-> S13].
        split; [reflexivity|]. apply (Sim_fin a1 b3 _ _ t o0 S13); [apply Fin_mark; exact Ho1|exact FinB].
      * (* one fails: run A executes t from the store validation left *)
        destruct (exec_mark_done _ t Sa a1 o a' TA1 MA) as [a2 [a3 [PA2 [StA [KA2 [XA FinA]]]]]].
        destruct (Ifalse eq_refl Sa a2 o a3 PA2 (KA2 (K1 Ka0)) (Sim_start_l a1 a2 a1 t ltac:(apply Same_Sim, Same_refl) (top_nc _ _ _ TA1) StA) XA) as [-> S33].
        split; [reflexivity|exact (Sim_fin a3 b3 _ _ t o' S33 FinA FinB)].
    + destruct CA as [TA CA]. rewrite CA in MA.
      destruct (exec_mark_done _ t Sa a0 o a' TA MA) as [a2 [a3 [PA2 [StA [KA2 [XA FinA]]]]]].
      destruct (sim_exec f IH (P t) f1 t Sa Sb a2 b2 o a3 o' b3 PA2 (KA2 Ka0) PB2 Fb2 (Sim_start_l a0 a2 b2 t S02 Hma StA) XA XB) as [-> S33].
      split; [reflexivity|exact (Sim_fin a3 b3 _ _ t o' S33 FinA FinB)].
Qed.

Variable always : ocid.

Lemma Same_top_start w t : Same w (top_start always w t).
Proof. eapply Same_trans; [apply (Same_struct w (emit (emit (set_cur w None) EBuildStart) (ERequireStart t always))); reflexivity|apply Same_goc_task]. Qed.

Lemma sim_session_require f f' a b t oa a' ob b' :
  J a -> KK a -> J b -> FreshW b -> Sim a b ->
  session_require RC OC P always f a t = Done oa a' -> session_require RC OC P always f' b t = Done ob b' ->
  oa = ob /\ Sim a' b'.
Proof.
  intros [Ha Ja] Ka [Hb Jb] Fb Sab EA EB.
  destruct (session_require_run RC OC P always f a t Ha Ja) as [_ [Ha2 [Ja2 [_ RA]]]]. rewrite RA in EA.
  destruct (session_require_run RC OC P always f' b t Hb Jb) as [_ [Hb2 [Jb2 [_ RB]]]]. rewrite RB in EB.
  destruct (mc f (top_start always a t) t) as [o4 a4|k a4|] eqn:MA; try discriminate.
  destruct (mc f' (top_start always b t) t) as [o4' b4|k b4|] eqn:MB; try discriminate.
  inversion EA; subst oa a'. inversion EB; subst ob b'.
  destruct (sim_mc f f' _ _ t [] [] o4 a4 o4' b4 Ha2 Ja2
              ltac:(apply K_goc_task; apply (K_same RC OC P sf a); [reflexivity|reflexivity|exact Ka])
              Hb2 Jb2 (FreshW_same b _ (Same_top_start b t) Fb)
              (Sim_same_l a _ _ (Same_top_start a t) (Sim_same_r a b _ (Same_top_start b t) Sab))
              (chain_nil _) (chain_nil _) I I MA MB) as [Eo S4].
  split; [exact Eo|]. apply (Sim_same_l a4); [apply Same_struct; reflexivity|]. apply (Sim_same_r a4 b4); [apply Same_struct; reflexivity|exact S4].
Qed.

Definition is_done (r : sres) : Prop := exists x, r = RDone x.

Lemma session_fresh f b t o b' : J b -> FreshW b -> session_require RC OC P always f b t = Done o b' -> FreshW b'.
Proof.
  intros [Hb Jb] Fb Eq. pose proof (session_require_spec RC OC P always f b t Hb Jb) as SP. rewrite Eq in SP.
  destruct SP as [[seg P1] _]. eapply post_fresh; eassumption.
Qed.

Lemma run_session_done f w o tl : td_only (o :: tl) -> Forall is_done (fst (run_session RC OC P always f w (o :: tl))) ->
  exists t x w1, o = SRequire t /\ td_only tl /\ session_require RC OC P always f w t = Done x w1 /\
    Forall is_done (fst (run_session RC OC P always f w1 tl)) /\
    run_session RC OC P always f w (o :: tl) = (RDone (Some x) :: fst (run_session RC OC P always f w1 tl), snd (run_session RC OC P always f w1 tl)).
Proof.
  intros TD DA. destruct o as [t|ch]; [|destruct TD]. cbn [run_session run_sop] in *.
  destruct (session_require RC OC P always f w t) as [x w1|k w1|] eqn:SR; [|inversion DA as [|r0 l0 [y Y] _]; discriminate..].
  exists t, x, w1. destruct (run_session RC OC P always f w1 tl) as [rs w2]. cbn [fst snd] in *.
  split; [reflexivity|]. split; [exact TD|]. split; [exact SR|]. split; [exact (Forall_inv_tail DA)|reflexivity].
Qed.

Theorem sim_session f f' ops : forall a b, td_only ops -> J a -> KK a -> J b -> FreshW b -> Sim a b ->
  Forall is_done (fst (run_session RC OC P always f a ops)) -> Forall is_done (fst (run_session RC OC P always f' b ops)) ->
  fst (run_session RC OC P always f a ops) = fst (run_session RC OC P always f' b ops) /\
  Sim (snd (run_session RC OC P always f a ops)) (snd (run_session RC OC P always f' b ops)).
Proof.
  induction ops as [|o tl IH]; intros a b TD Ja Ka Jb Fb Sab DA DB; [split; [reflexivity|exact Sab]|].
  destruct (run_session_done f a o tl TD DA) as [t [xa [a1 [-> [TD' [SA [DA' ->]]]]]]].
  destruct (run_session_done f' b (SRequire t) tl TD DB) as [t' [xb [b1 [Et [_ [SB [DB' ->]]]]]]]. inversion Et; subst t'. cbn [fst snd].
  destruct (sim_session_require f f' a b t xa a1 xb b1 Ja Ka Jb Fb Sab SA SB) as [-> S1].
  pose proof (session_require_execs RC OC P always f a t Ja) as EA. pose proof (session_require_execs RC OC P always f' b t Jb) as EB.
  pose proof (session_require_K RC OC P sf HS HNR always f a t (proj1 Ja) (proj2 Ja) Ka) as KA. rewrite SA in EA, KA. rewrite SB in EB.
  destruct (IH a1 b1 TD' (proj1 EA) KA (proj1 EB) (session_fresh f' b t xb b1 Jb Fb SB) S1 DA' DB') as [E S2].
  split; [rewrite E; reflexivity|exact S2].
Qed.

(* the same resources in a store that has never built anything *)
Definition fresh_of (w : world) : world := mkWorld empty [] (rstate w) (env w) None [] [] [] [].

Lemma fresh_start w : J (new_session (fresh_of w)) /\ FreshW (new_session (fresh_of w)) /\ Sim (new_session w) (new_session (fresh_of w)).
Proof.
  split; [split; [exact GOK_empty|split; [intros t d X; discriminate|intros t X; discriminate]]|].
  split; [intros x _; reflexivity|constructor; [reflexivity|reflexivity|reflexivity|intros x X; discriminate]].
Qed.

Lemma session_post f ops : forall w, td_only ops -> J w -> Forall is_done (fst (run_session RC OC P always f w ops)) ->
  exists seg, Post [] [] [] w (snd (run_session RC OC P always f w ops)) seg.
Proof.
  induction ops as [|o tl IH]; intros w TD Jw DA; [exists []; apply post_refl; apply Jw|].
  destruct (run_session_done f w o tl TD DA) as [t [x [w1 [-> [TD' [SR [DA' ->]]]]]]]. cbn [snd].
  pose proof (session_require_spec RC OC P always f w t (proj1 Jw) (proj2 Jw)) as SP. rewrite SR in SP. destruct SP as [[s1 P1] _].
  destruct (IH w1 TD' (conj (po_ok _ _ _ _ _ _ P1) (po_inv _ _ _ _ _ _ P1 (proj2 Jw))) DA') as [s2 P2].
  exists (s1 ++ s2). eapply post_seq; eassumption.
Qed.

Lemma fresh_cons_exec S w w' seg : Post S [] [] w w' seg -> FreshW w ->
  forall x, memN x (consistent w') = true -> memN x (consistent w) = true \/ In x (execs seg).
Proof.
  intros P1 F x X. destruct (po_newcons _ _ _ _ _ _ P1 x X) as [Y|[Y|Y]]; [left; exact Y|right; exact Y|].
  destruct (memN x (consistent w)) eqn:Z; [left; reflexivity|]. exfalso. apply Y. apply F. exact Z.
Qed.

End Sm.
