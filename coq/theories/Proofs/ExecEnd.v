(* C17: "every task execution that really ran appears ... with the output it returned" -- the tracker's execution events and
   the stored outputs agree in EVERY reachable state of EVERY session (top-down requires and bottom-up builds in any mix,
   completed or aborted), for all programs, checkers and fuel:
     - if the latest execution event of a task in the session's stream is its END with output o, the store holds exactly o for it
       (the value every later require of the task returns from the cache);
     - if it is its START (the execution is still running, or was aborted), the task has no output.
   The language of session streams (TdForward.Sess) says more: the outputs are a function of the segment emitted (BuJust.follows, out_of).
   At the end of the file: the require-end event carries the value returned to the caller. *)
From Coq Require Import List NArith ZArith Bool.
From PieV Require Import Model.Dag Model.Build Proofs.Steps Proofs.InvE Proofs.Local2 Proofs.BuJust Proofs.TdForward.
Import ListNotations.
Open Scope N_scope.

Fixpoint last_exec (tr : list event) (t : task) : option (option Z) :=
  match tr with
  | [] => None
  | EExecStart t' :: tl => if N.eqb t' t then Some None else last_exec tl t
  | EExecEnd t' o :: tl => if N.eqb t' t then Some (Some o) else last_exec tl t
  | _ :: tl => last_exec tl t
  end.

Definition XI (w : world) : Prop := forall t,
  match last_exec (trace w) t with
  | Some (Some o) => get_task_output w t = Some o
  | Some None => get_task_output w t = None
  | None => True
  end.

Lemma last_exec_segments a b t : last_exec (a ++ b) t = match last_exec a t with Some x => Some x | None => last_exec b t end.
Proof.
  induction a as [|e a IH]; [reflexivity|]. destruct e; cbn [app last_exec]; try exact IH; destruct (N.eqb t0 t); try exact IH; reflexivity.
Qed.
Lemma out_of_last_exec o0 seg t : out_of o0 seg t = match last_exec seg t with Some x => x | None => alookup o0 t end.
Proof.
  induction seg as [|e a IH]; [reflexivity|]. destruct e; cbn [out_of kind last_exec]; try exact IH; destruct (N.eqb t0 t); try exact IH; reflexivity.
Qed.
Lemma last_exec_nonexec e tr t : nonexec e = true -> last_exec (e :: tr) t = last_exec tr t.
Proof. destruct e; cbn; try discriminate; reflexivity. Qed.
Lemma XI_same w w' : trace w' = trace w -> outs w' = outs w -> XI w -> XI w'.
Proof. intros T O H t. unfold get_task_output. rewrite T, O. apply H. Qed.
Lemma S_XI w w' : XI w -> Sess w w' -> XI w'.
Proof.
  intros H [seg [[[A1 [A2 _]] _ _] _]] t. rewrite A1, last_exec_segments, A2, out_of_last_exec.
  destruct (last_exec seg t) as [[o|]|]; [reflexivity..|apply H].
Qed.

Lemma XI_init : XI init_world. Proof. intros t. cbn. exact Logic.I. Qed.
Lemma XI_new_session w : XI (new_session w). Proof. intros t. cbn. exact Logic.I. Qed.
Lemma XI_set_content w r v : XI w -> XI (set_content w r v). Proof. apply XI_same; destruct v; reflexivity. Qed.

Section EE.
Variable RC : rcid -> rchecker.
Variable OC : ocid -> ochecker.
Variable P : task -> prog.
Variable always : ocid.

(* in the form Props/C17.v cites (okO excuses ABug 4, but XI holds after that abort as well) *)
Theorem session_require_XI fuel w t : XI w -> okO XI (session_require RC OC P always fuel w t).
Proof.
  intros H. pose proof (kept_session_require RC OC P _ _ (S_kept _) (S_kept_td _) always fuel w t (S_start w)) as Y.
  destruct (session_require _ _ _ _ _ _ _); [|right|exact Logic.I]; exact (S_XI w _ H Y).
Qed.
Theorem session_bottom_up_XI fuel w ch : XI w -> okO XI (session_bottom_up RC OC P fuel w ch).
Proof.
  intros H. pose proof (kept_session_bottom_up RC OC P _ _ (S_kept _) fuel w ch (k_clear _ _ (S_kept_td _) w (S_start w))) as Y.
  destruct (session_bottom_up _ _ _ _ _ _); [|right|exact Logic.I]; exact (S_XI w _ H Y).
Qed.

Lemma run_sop_XI fuel w o : XI w -> XI (snd (run_sop RC OC P always fuel w o)).
Proof. intros H. exact (S_XI w _ H (kept_run_sop RC OC P _ _ (S_kept w) (S_kept_td w) always fuel w o (S_start w))). Qed.
Theorem run_session_XI fuel ops w : XI w -> XI (snd (run_session RC OC P always fuel w ops)).
Proof. intros H. exact (S_XI w _ H (kept_run_session RC OC P _ _ (S_kept w) (S_kept_td w) always fuel ops w (S_start w))). Qed.

Lemma run_step_XI fuel w s : XI w -> XI (snd (run_step RC OC P always fuel w s)).
Proof.
  intros H. destruct s as [r v|f|ops]; cbn [run_step fst snd]; [apply XI_set_content; exact H|exact H|apply run_session_XI, XI_new_session].
Qed.

Theorem run_history_XI fuel h : forall w, XI w -> XI (snd (run_history RC OC P always fuel w h)).
Proof.
  induction h as [|s tl IH]; intros w H; cbn [run_history]; [exact H|].
  apply (run_step_XI fuel w s) in H. destruct (run_step RC OC P always fuel w s) as [r w'].
  specialize (IH w' H). destruct (run_history RC OC P always fuel w' tl) as [rs w'']. exact IH.
Qed.

Theorem exec_events_agree_with_outputs_any_history fuel h :
  XI (snd (run_history RC OC P always fuel init_world h)).
Proof. apply run_history_XI, XI_init. Qed.
End EE.

(* C17, "a require-end event carries the value returned to the caller", as a statement about the stream the tracker holds when
   the call returns: for EVERY require issued by a task (top-down or inside a bottom-up build, whatever make_task_consistent does)
   and for Session::require, for all programs, checkers, fuel and worlds. *)
Section RE.
Variable RC : rcid -> rchecker.
Variable OC : ocid -> ochecker.
Variable P : task -> prog.
Variable always : ocid.

Lemma update_trace w t c st w' : update_require_dependency w t c st = Done tt w' -> trace w' = trace w.
Proof.
  unfold update_require_dependency. destruct (cur w); [|intros H; inversion H; reflexivity].
  destruct (get_edata _ _ _); [|discriminate]. intros H. inversion H. reflexivity.
Qed.

Theorem require_end_is_newest_event mc w t c o w' :
  require_with OC mc w t c = Done o w' ->
  exists rest, trace w' = ERequireEnd t c (oc_stamp (OC c) o) o :: rest.
Proof.
  intros H. destruct (require_with_done OC mc w t c o w' H) as [w3 [w4 [_ U]]].
  apply update_trace in U. rewrite U. cbn [trace emit]. eexists. reflexivity.
Qed.

Theorem session_require_end_value fuel w t o w' :
  session_require RC OC P always fuel w t = Done o w' ->
  exists rest, trace w' = EBuildEnd :: ERequireEnd t always (oc_stamp (OC always) o) o :: rest.
Proof.
  unfold session_require. intros H. apply bind_done in H as (o2 & w2 & R & H). inversion H; subst. clear H.
  unfold require_td in R. destruct (require_end_is_newest_event _ _ _ _ _ _ R) as [rest E].
  cbn [trace emit]. rewrite E. eexists. reflexivity.
Qed.

Theorem require_bu_end_value mc w t c o w' :
  require_bu_with OC mc w t c = Done o w' ->
  exists rest, trace w' = ERequireEnd t c (oc_stamp (OC c) o) o :: rest.
Proof.
  unfold require_bu_with. intros H. apply bind_done in H as (o2 & w2 & R & H). inversion H; subst. clear H. cbn [trace mark_consistent set_consistent].
  exact (require_end_is_newest_event _ _ _ _ _ _ R).
Qed.
End RE.
