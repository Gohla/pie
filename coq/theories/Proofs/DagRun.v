(* The invariant over arbitrary operation sequences (the quantifier of C10), and the rank bijection as a permutation.  add_edge never
   runs out of the model's fuel on a well-formed graph (add_edge_outcome has no such case), so every operation sequence is run_ok and
   C10/C11 hold without a fuel premise. *)
From Coq Require Import List NArith Bool Lia Permutation.
From PieV Require Import Model.Dag Proofs.DagLib Proofs.DagWF Proofs.DagAddEdge.
Import ListNotations.
Open Scope N_scope.

Section Run.
Context {ED : Type}.
Implicit Types g : dag ED.

Definition ids g := map fst (infos g).
Definition Fresh g : Prop := forall n, In n (ids g) -> n < fresh g.

Lemma add_edge_ids g s d e :
  WF g -> map fst (infos (snd (add_edge g s d e))) = map fst (infos g) /\ fresh (snd (add_edge g s d e)) = fresh g.
Proof.
  intros W.
  destruct (add_edge_outcome g s d e W) as [ | | |[Ls [Ld [Hsd _]]] _| |cf cb [Ls [Ld [Hsd _]]] _ _ _]; cbn [snd];
    try (split; reflexivity); (split; [|reflexivity]).
  - apply (pre_graph_view g s d e Ls Ld Hsd).
  - unfold reorder_nodes. cbn [infos]. rewrite assign_ranks_ids. apply (pre_graph_view g s d e Ls Ld Hsd).
Qed.

Lemma step_ids_fresh g (o : gop ED) :
  WF g ->
  match o with
  | GAddNode => ids (gstep g o) = ids g ++ [fresh g] /\ fresh (gstep g o) = fresh g + 1
  | _ => incl (ids (gstep g o)) (ids g) /\ fresh (gstep g o) = fresh g
  end.
Proof.
  intros W. destruct o as [|n|s d e|s d|s]; cbn [gstep].
  - unfold add_node, add_node_at, ids. cbn. rewrite map_app. cbn. split; [reflexivity|lia].
  - destruct (live g n) eqn:Ln.
    + destruct (remove_node_frame g n Ln) as [A [_ B']]. unfold ids. rewrite A, B'. split; [|reflexivity]. intros x X. apply filter_In in X. exact (proj1 X).
    + rewrite (remove_node_dead g n Ln). split; [apply incl_refl|reflexivity].
  - destruct (add_edge_ids g s d e W) as [A B']. unfold ids. rewrite A, B'. split; [apply incl_refl|reflexivity].
  - destruct (remove_edge_frame g s d) as [A [_ B']]. unfold ids. rewrite A, B'. split; [apply incl_refl|reflexivity].
  - destruct (remove_outgoing_frame g s) as [A [_ B']]. unfold ids. rewrite A, B'. split; [apply incl_refl|reflexivity].
Qed.

Theorem add_edge_no_fuel g s d (e : ED) : WF g -> fst (add_edge g s d e) <> AFuel.
Proof. intros W. destruct (add_edge_outcome g s d e W); discriminate. Qed.

(* every add_edge of the run answers (no fuel exhaustion) *)
Fixpoint run_ok g (ops : list (gop ED)) : Prop :=
  match ops with
  | [] => True
  | o :: tl => (match o with GAddEdge s d e => fst (add_edge g s d e) <> AFuel | _ => True end) /\ run_ok (gstep g o) tl
  end.

Lemma step_WF g (o : gop ED) : WF g -> Fresh g -> WF (gstep g o) /\ Fresh (gstep g o).
Proof.
  intros W F. pose proof (step_ids_fresh g o W) as SI. split.
  - destruct o as [|n|s d e|s d|s]; cbn [gstep].
    + apply WF_add_node; [exact W|]. intros n X. apply F. apply live_true_iff. exact X.
    + apply WF_remove_node. exact W.
    + apply add_edge_WF. exact W.
    + apply WF_remove_edge. exact W.
    + apply WF_remove_outgoing. exact W.
  - destruct o as [|n|s d e|s d|s]; cbn [gstep] in *.
    + destruct SI as [A B']. intros n X. rewrite A in X. rewrite B'. apply in_app_or in X. destruct X as [X|[<-|[]]]; [specialize (F n X)|]; lia.
    + destruct SI as [A B']. intros x X. rewrite B'. apply F. apply A. exact X.
    + destruct SI as [A B']. intros x X. rewrite B'. apply F. apply A. exact X.
    + destruct SI as [A B']. intros x X. rewrite B'. apply F. apply A. exact X.
    + destruct SI as [A B']. intros x X. rewrite B'. apply F. apply A. exact X.
Qed.

Theorem run_WF (ops : list (gop ED)) : forall g, WF g -> Fresh g -> WF (fold_left gstep ops g) /\ Fresh (fold_left gstep ops g).
Proof.
  induction ops as [|o tl IH]; intros g W F; cbn [fold_left]; [split; assumption|].
  destruct (step_WF g o W F) as [W' F']. apply IH; assumption.
Qed.

Theorem grun_WF (ops : list (gop ED)) : WF (grun ops).
Proof.
  unfold grun. apply run_WF; [apply WF_empty|]. intros n [].
Qed.

Theorem run_ok_always (ops : list (gop ED)) : forall g, WF g -> Fresh g -> run_ok g ops.
Proof.
  induction ops as [|o tl IH]; intros g W Fr; cbn [run_ok]; [exact I|]. split.
  - destruct o; try exact I. apply add_edge_no_fuel. exact W.
  - destruct (step_WF g o W Fr) as [W' F']. apply IH; assumption.
Qed.

Theorem WF_ranks_permutation g :
  WF g -> Permutation (map (rank_of g) (ids g)) (map N.of_nat (seq 1 (length (infos g)))).
Proof.
  intros W. apply NoDup_Permutation_bis.
  - apply NoDup_map_key; [apply (wf_ids g W)|]. intros x y X Y. apply (wf_inj g W); apply live_true_iff; assumption.
  - rewrite !map_length, seq_length. unfold ids. rewrite map_length. lia.
  - intros r X. apply in_map_iff in X. destruct X as [x [<- X]].
    assert (L : live g x = true) by (apply live_true_iff; exact X).
    pose proof (wf_range g W x L) as R. rewrite (wf_last g W) in R.
    apply in_map_iff. exists (N.to_nat (rank_of g x)). split; [apply N2Nat.id|]. apply in_seq. lia.
Qed.

End Run.
