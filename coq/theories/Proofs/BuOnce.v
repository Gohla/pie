(* C04, the at-most-once clause, partial but global: in ANY bottom-up build (completed or aborted, any world, all programs and
   checkers) a second execution of a task t can only start if, since the previous start of t, either t was scheduled again or
   that previous execution has not ended.  I.e. the queue bookkeeping and the "new task" shortcut never duplicate an execution
   (the defect O14 was exactly this: a scheduled task without output was run as "new" and again from the queue).  What remains
   outside this theorem: that a consistent task is not scheduled again (needs the hidden-dependency argument of the class) and
   that an executing task is not re-entered (the cycle check).
   Read off the language of bottom-up streams (BuJust.Lang) at the second start: t is pending there, or has no output. *)
From Coq Require Import List NArith ZArith Bool.
From PieV Require Import Model.Build Proofs.BuJust.
Import ListNotations.
Open Scope N_scope.

Definition plain2 (e : event) : bool := match e with ESchedTask _ | EExecStart _ | EExecEnd _ _ => false | _ => true end.
Lemma plain2_plain e : plain2 e = true -> plain e = true. Proof. destruct e; cbn; congruence. Qed.

Lemma Lang_second_start o0 a t b c : Lang (guard o0) (a ++ EExecStart t :: b ++ EExecStart t :: c) -> ~ In (EExecStart t) b ->
  In (ESchedTask t) b \/ ~ (exists o, In (EExecEnd t o) b).
Proof.
  intros L N. destruct (Lang_split _ _ _ _ L) as [G|G]; [left; exact (pend_since b t c G)|right; exact (out_of_since o0 b t c N G)].
Qed.

Section Top.
Variable RC : rcid -> rchecker.
Variable OC : ocid -> ochecker.
Variable P : task -> prog.

Theorem bottom_up_no_duplicate_execution fuel w ch :
  match session_bottom_up RC OC P fuel w ch with
  | Done _ w' | Abort _ w' =>
    exists seg, trace w' = seg ++ trace w /\
      forall a t b c, seg = a ++ EExecStart t :: b ++ EExecStart t :: c -> ~ In (EExecStart t) b ->
        In (ESchedTask t) b \/ ~ (exists o, In (EExecEnd t o) b)
  | OutOfFuel => True
  end.
Proof.
  pose proof (bottom_up_lang RC OC P fuel w ch) as H.
  destruct (session_bottom_up RC OC P fuel w ch) as [u w'|k w'|]; [| |exact Logic.I];
    destruct H as [seg [[A1 _] _ A4]]; exists seg; (split; [exact A1|]); intros a t b c E N; subst seg;
    exact (Lang_second_start _ a t b c A4 N).
Qed.

End Top.
