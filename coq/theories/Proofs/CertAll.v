(* C08 for every history (top-down, bottom-up, mixed sessions, aborted builds): for every task that has an output, the dependency
   list in the store is exactly one complete run of its program (class NR: no target twice per execution; stampers total: HS).
   Anchor style (NoReentry.v / NoBugAll.v) with equality frames: the rows of the anchor's strict ancestors are untouched by
   anything the anchor does, the anchor's own row by every make_task_consistent call it makes.  K is the first instance of
   Section Pass (KA_pass), the no-abort bundle of NoAbortAll.v (A_pass) the second. *)
From Coq Require Import List NArith.
From PieV Require Import Model.Dag Model.Build Proofs.Local2 Proofs.Local Proofs.DagLib Proofs.DagWF Proofs.DagPath Proofs.StoreInv
  Proofs.Steps Proofs.ExecInv Proofs.ExecSession Proofs.Cert Proofs.NoBug4All Proofs.NoReentry
  Proofs.NoBugAll.
Import ListNotations.
Open Scope N_scope.

Definition EqN (w w' : world) (n : node) : Prop :=
  kids_of (gr w') n = kids_of (gr w) n /\ forall e, get_edata (gr w') n e = get_edata (gr w) n e.
Definition EqS (c : task) (w w' : world) : Prop := forall n, path (gr w) n (tn c) -> EqN w w' n.
(* EqF: what make-consistent of a task reached from the anchor leaves alone -- the rows of the anchor's strict ancestors AND
   the anchor's own row (the sub-build never records for the anchor).  EqC: what a require by the executing task leaves alone
   -- only the strict ancestors, since the require itself adds an entry to the row of cur w. *)
Definition EqF (a : option task) (w w' : world) : Prop :=
  match a with None => True | Some c => EqS c w w' /\ EqN w w' (tn c) end.
Definition EqC (w w' : world) : Prop := match cur w with Some t => EqS t w w' | None => True end.
Definition geq (w w' : world) : Prop := forall n, EqN w w' n.

Lemma EqN_refl w n : EqN w w n. Proof. split; reflexivity. Qed.
Lemma EqN_trans w1 w2 w3 n : EqN w1 w2 n -> EqN w2 w3 n -> EqN w1 w3 n.
Proof. intros [A1 B1] [A2 B2]. split; [congruence|intros e; rewrite B2; apply B1]. Qed.
Lemma EqS_path c w w' n : EqS c w w' -> path (gr w) n (tn c) -> path (gr w') n (tn c).
Proof. intros E Pn. apply (path_pres (gr w)); [|exact Pn]. intros m Pm x X. rewrite (proj1 (E m Pm)). exact X. Qed.
Lemma EqS_refl c w : EqS c w w. Proof. intros n _. apply EqN_refl. Qed.
Lemma EqS_trans c w1 w2 w3 : EqS c w1 w2 -> EqS c w2 w3 -> EqS c w1 w3.
Proof. intros E1 E2 n Pn. eapply EqN_trans; [apply E1; exact Pn|apply E2; eapply EqS_path; eassumption]. Qed.
Lemma EqF_refl a w : EqF a w w. Proof. destruct a; [split; [apply EqS_refl|apply EqN_refl]|exact Logic.I]. Qed.
Lemma EqF_trans a w1 w2 w3 : EqF a w1 w2 -> EqF a w2 w3 -> EqF a w1 w3.
Proof. destruct a as [c|]; [|trivial]. intros [S1 N1] [S2 N2]. split; [eapply EqS_trans; eassumption|eapply EqN_trans; eassumption]. Qed.
Lemma geq_EqS c w w' : geq w w' -> EqS c w w'. Proof. intros G n _. apply G. Qed.
Lemma geq_EqF a w w' : geq w w' -> EqF a w w'. Proof. intros G. destruct a; [split; [apply geq_EqS; exact G|apply G]|exact Logic.I]. Qed.
Lemma geq_same w w' : gr w' = gr w -> geq w w'. Proof. intros G n. unfold EqN. rewrite G. split; reflexivity. Qed.
Lemma geq_trans a b c : geq a b -> geq b c -> geq a c. Proof. intros G1 G2 n. eapply EqN_trans; [apply G1|apply G2]. Qed.
(* everything the anchor a protects is a strict ancestor of a task t reached from it *)
Lemma EqS_to_EqF a t w w' : reach a w t -> EqS t w w' -> EqF a w w'.
Proof.
  intros R E. destruct a as [c|]; [|exact Logic.I]. specialize (R c eq_refl). split; [|apply E; exact R].
  intros n Pn. apply E. eapply path_trans; eassumption.
Qed.
Lemma geq_goc w n : geq w (goc w n).
Proof. destruct (goc_spec w n) as [g [-> [K [E _]]]]. intros m. split; [apply K|apply E]. Qed.
Lemma geq_goc_task w t : geq w (get_or_create_task_node w t). Proof. exact (geq_goc w (tn t)). Qed.
Lemma geq_goc_res w r : geq w (get_or_create_resource_node w r). Proof. exact (geq_goc w (rn r)). Qed.

Lemma sstep_geq w w' : sstep w w' -> geq w w'.
Proof. intros [a e _|a e|a t|a r]; [apply geq_same; reflexivity|apply geq_same; reflexivity|apply geq_same, queue_add_gr|apply geq_goc]. Qed.
Lemma sched_geq w w' : chain sstep w w' -> geq w w'.
Proof. apply (chain_in sstep geq (fun w => geq_same w w eq_refl) geq_trans sstep_geq). Qed.

Lemma geq_refl w : geq w w. Proof. intros n. apply EqN_refl. Qed.
Lemma mark_geq w t : geq w (mark_consistent w t). Proof. apply geq_same; reflexivity. Qed.

Section Pre.
Variable RC : rcid -> rchecker.
Variable OC : ocid -> ochecker.
Variable P : task -> prog.

Lemma step_pre {A} a w (m : outcome A) x w1 :
  VPre a w -> okR w m -> okN a w m -> okV a w m -> m = Done x w1 -> VPre a w1 /\ cur w1 = cur w /\ mono w w1 /\ FrameO a w w1 /\ opens (trace w1) = opens (trace w).
Proof. exact (step_V a w m x w1). Qed.

Lemma rw_VPre {X} a (o : rwop X) w x w1 : VPre a w -> run_rw RC o w = Done x w1 -> VPre a w1 /\ kept a w w1.
Proof.
  intros Hw. apply (step_pre a w _ x w1 Hw); [apply run_rw_R; apply Hw|apply q3O_okN; [apply rw_q3; apply Hw|apply Hw]|
    apply lvO_okV; [apply rw_lv; apply Hw|apply Hw]].
Qed.
Lemma mc_pre mc a w t x w1 : VMC mc -> VPre a w -> live (gr w) (tn t) = true -> reach a w t -> mc w t = Done x w1 -> VPre a w1 /\ kept a w w1.
Proof.
  intros [Hmc HmcV] Hw Lt R. apply (step_pre a w (mc w t) x w1 Hw); [apply (proj1 Hmc); [apply Hw|exact Lt]|apply (proj2 Hmc); [apply Hw|exact Lt|exact R]|
    apply HmcV; assumption].
Qed.
Lemma bes_pre f a w t x w1 : VPre a w -> live (gr w) (tn t) = true -> reach a w t -> bu_execute_and_schedule RC OC P f w t = Done x w1 ->
  VPre a w1 /\ kept a w w1.
Proof.
  intros Hw Lt R. apply (step_pre a w _ x w1 Hw); [apply (bottom_up_R RC OC P f); [apply Hw|exact Lt]|apply (bottom_up_N RC OC P f); [apply Hw|exact Lt|exact R]|
    apply (bottom_up_V RC OC P f); assumption].
Qed.

Lemma check_deps_pre f a w t o0 ok w1 : VPre a w -> reach a w t -> get_task_output w t = Some o0 ->
  check_deps RC OC (make_consistent_td RC OC P f) (deps_of_task w t) w = Done ok w1 -> VPre a w1 /\ reach a w1 t /\ kept a w w1.
Proof.
  intros Hw R Ho. pose proof (VPre_strengthen a t w Hw R) as PS. assert (H : StoreOK w) by apply Hw.
  pose proof (make_consistent_td_V RC OC P f) as HV.
  apply (step_V2 a t w _ ok w1 Hw R).
  - apply check_deps_R; [apply make_consistent_td_L|apply Hw].
  - apply check_deps_N; [exact (proj1 HV)|apply PS|apply deps_DR; exact H].
  - apply check_deps_V; [exact HV|exact PS|apply deps_DR; exact H|apply (deps_good w t o0 H); [apply Hw|exact Ho]].
Qed.
Lemma bes_pre2 f a t w m x w1 : VPre a w -> reach a w t -> live (gr w) (tn m) = true -> path (gr w) (tn t) (tn m) ->
  bu_execute_and_schedule RC OC P f w m = Done x w1 -> VPre a w1 /\ reach a w1 t /\ kept a w w1.
Proof.
  intros Hw R Lm Pm. pose proof (VPre_strengthen a t w Hw R) as PS.
  assert (RS : reach (Some t) w m) by (intros c Hc; inversion Hc; subst c; exact Pm).
  apply (step_V2 a t w _ x w1 Hw R); [apply (bottom_up_R RC OC P f); [apply Hw|exact Lm]|apply (bottom_up_N RC OC P f); [apply PS|exact Lm|exact RS]|
    apply (bottom_up_V RC OC P f); assumption].
Qed.
Lemma schedule_after_geq w t o : geq w (schedule_after RC OC w t o).
Proof. destruct (schedule_after_chain RC OC w t o) as [wm [C ->]]. eapply geq_trans; [apply sched_geq; exact C|apply mark_geq]. Qed.
End Pre.

(* The pass over the interpreters for an invariant J of rows and outputs carried on top of VPre.  Which task is made consistent,
   executed or pulled from the queue under which anchor, and that the internal errors do not occur there, is the same for every
   J (okR of NoBug4All.v, okN of NoReentry.v, okV of NoBugAll.v); a pass says what J is, what a sub-build guarantees to the
   anchor (Gu) and what an abort leaves (Ab). *)
Section Pass.
Variable RC : rcid -> rchecker.
Variable OC : ocid -> ochecker.
Variable P : task -> prog.
Variable J : world -> Prop.
Variable Gu : option task -> world -> world -> Prop.
Variable Ab : world -> Prop.
(* MC0: what another pass of this kind already says of make-consistent (A_pass takes KAMC from KA_pass); REQ: the pass's
   specification of a require *)
Variable MC0 : (world -> task -> outcome Z) -> Prop.
Variable REQ : (world -> task -> ocid -> outcome Z) -> Prop.

Definition okJ {A} (a : option task) (w : world) (m : outcome A) : Prop :=
  match m with Done _ w' => J w' /\ Gu a w w' | Abort _ w' => Ab w' | OutOfFuel => True end.
Definition endJ {A} (m : outcome A) : Prop := match m with Done _ w' => J w' | Abort _ w' => Ab w' | OutOfFuel => True end.
Definition JMC (mc : world -> task -> outcome Z) : Prop :=
  forall a w t, VPre a w -> live (gr w) (tn t) = true -> reach a w t -> J w -> okJ a w (mc w t).

Record APass : Prop := mkAPass {
  ap_geq : forall w w', geq w w' -> outs w' = outs w -> J w -> J w';
  ap_refl : forall a w, Gu a w w;
  ap_trans : forall a w1 w2 w3, Gu a w1 w2 -> Gu a w2 w3 -> Gu a w1 w3;
  ap_quiet : forall a w w', geq w w' -> Gu a w w';
  ap_weaken : forall a t w w', reach a w t -> Gu (Some t) w w' -> Gu a w w';
  ap_td : forall f, MC0 (make_consistent_td RC OC P f);
  ap_bu : forall f, MC0 (bu_make_consistent RC OC P f);
  ap_req : forall mc, VMC mc -> MC0 mc -> JMC mc -> REQ (require_with OC mc);
  ap_req_bu : forall mc, VMC mc -> MC0 mc -> JMC mc -> REQ (require_bu_with OC mc);
  ap_exec : forall req a w t, VREQ req -> REQ req -> VPre a w -> live (gr w) (tn t) = true -> reach a w t -> J w ->
    okJ a w (execute_with RC OC P req w t);
  ap_top : forall req w t c, REQ req -> VPre (cur w) w -> cur w = None -> J w -> endJ (req w t c)
}.
Hypothesis HP : APass.

Lemma okJ_preG {A} a w w2 (m : outcome A) : Gu a w w2 -> okJ a w2 m -> okJ a w m.
Proof. intros G. destruct m; cbn; [intros [X1 X2]; split; [exact X1|eapply (ap_trans HP); eassumption]|trivial|trivial]. Qed.
Lemma okJ_pre {A} a w w2 (m : outcome A) : geq w w2 -> okJ a w2 m -> okJ a w m.
Proof. intros G. apply okJ_preG, (ap_quiet HP), G. Qed.
Lemma bind_J {A B} a w (m : outcome A) (f : A -> world -> outcome B) :
  okJ a w m -> (forall x w1, m = Done x w1 -> J w1 -> okJ a w1 (f x w1)) -> okJ a w (bind m f).
Proof. intros H F. eapply holds_bind; [exact H|]. intros x w1 E [J1 G1]. apply (okJ_preG a w w1); [exact G1|exact (F x w1 E J1)]. Qed.
Lemma quiet_J {A} a w w' (x : A) : geq w w' -> outs w' = outs w -> J w -> okJ a w (Done x w').
Proof. intros G O H. split; [eapply (ap_geq HP); eassumption|apply (ap_quiet HP), G]. Qed.
Lemma ret_J {A} a w (x : A) : J w -> okJ a w (Done x w).
Proof. apply quiet_J; [apply geq_refl|reflexivity]. Qed.
Lemma J_same w w' : gr w' = gr w -> outs w' = outs w -> J w -> J w'.
Proof. intros G. apply (ap_geq HP), geq_same, G. Qed.

Lemma check_resource_J a w r c st k : VPre a w -> J w ->
  (forall w1, lv w w1 -> VPre a w1 -> J w1 -> okJ a w1 (k w1)) -> okJ a w (after_check k (check_resource_td RC w r c st)).
Proof.
  intros Hw Hj Hk. pose proof (check_resource_lv RC w r c st) as Q. destruct (check_resource_td_L RC w r c st (proj1 (proj1 Hw))) as [X _].
  assert (G : gr (snd (check_resource_td RC w r c st)) = gr w) by reflexivity.
  destruct (check_resource_td RC w r c st) as [[| |e] w1]; cbn [snd after_check] in *.
  - apply (okJ_pre _ w w1); [apply geq_same; exact G|]. apply Hk; [exact Q|eapply lv_VPre; eassumption|apply (J_same w); [exact G|apply Q|exact Hj]].
  - apply quiet_J; [apply geq_same; exact G|apply Q|exact Hj].
  - apply quiet_J; [apply geq_same; exact G|apply Q|exact Hj].
Qed.

Lemma check_deps_J mc t0 : VMC mc -> JMC mc -> forall ds w, VPre (Some t0) w -> DR t0 w ds -> DGood ds -> J w ->
  okJ (Some t0) w (check_deps RC OC mc ds w).
Proof.
  intros HV HQ. induction ds as [|d tl IH]; intros w Hw HR HG Hj; cbn [check_deps]; [apply ret_J; exact Hj|].
  assert (HGtl : DGood tl) by (intros x X; apply HG; right; exact X).
  destruct d as [[|t c st|r c st|r c st]|].
  - destruct (HG (Some DReserved) (or_introl eq_refl)) as [_ X]. contradiction X; reflexivity.
  - set (w1 := emit w (ECheckTaskStart t c st)).
    assert (P1 : VPre (Some t0) w1) by (eapply lv_VPre; [apply (lv_emit w); reflexivity|apply L_emit; apply Hw|exact Hw]).
    assert (E1 : In (tn t) (kids_of (gr w1) (tn t0))) by (apply (HR t c st); left; reflexivity).
    assert (Lt : live (gr w1) (tn t) = true) by apply (wf_closed _ (proj1 (proj1 (proj1 (proj1 P1)))) _ _ E1).
    assert (R1 : reach (Some t0) w1 t) by (intros s Hs; inversion Hs; subst s; apply path1; exact E1).
    apply (okJ_pre _ w w1); [apply geq_same; reflexivity|].
    apply bind_J; [apply HQ; [exact P1|exact Lt|exact R1|apply (J_same w); [reflexivity|reflexivity|exact Hj]]|].
    intros o w2 E J2. destruct (mc_pre mc (Some t0) w1 t o w2 HV P1 Lt R1 E) as [P2 [C2 [_ [F2 _]]]].
    destruct (oc_check (OC c) o st); [|apply quiet_J; [apply geq_same; reflexivity|reflexivity|exact J2]].
    apply (okJ_pre _ w2 (emit w2 (ECheckTaskEnd t c st (negb true)))); [apply geq_same; reflexivity|].
    apply IH; [eapply lv_VPre; [apply (lv_emit w2); reflexivity|apply L_emit; apply P2|exact P2]|
               eapply DR_tail; [exact HR|apply F2; left; reflexivity]|exact HGtl|apply (J_same w2); [reflexivity|reflexivity|exact J2]].
  - apply (check_resource_J (Some t0) w r c st (check_deps RC OC mc tl) Hw Hj). intros w1 Q P1 J1.
    apply IH; [exact P1|eapply DR_tail; [exact HR|intros x; apply Q]|exact HGtl|exact J1].
  - apply (check_resource_J (Some t0) w r c st (check_deps RC OC mc tl) Hw Hj). intros w1 Q P1 J1.
    apply IH; [exact P1|eapply DR_tail; [exact HR|intros x; apply Q]|exact HGtl|exact J1].
  - destruct (HG None (or_introl eq_refl)) as [X _]. contradiction X; reflexivity.
Qed.

Theorem make_consistent_td_J fuel : JMC (make_consistent_td RC OC P fuel).
Proof.
  induction fuel as [|f IH]; intros a w t Hw Lt R Hj; cbn [make_consistent_td]; [exact Logic.I|].
  pose proof (make_consistent_td_V RC OC P f) as IHV.
  set (w0 := get_or_create_task_node w t).
  assert (Q0 : lv w w0) by apply lv_goc.
  assert (G0 : geq w w0) by apply geq_goc.
  assert (L0 : L w0) by (apply goc_task_L; apply Hw).
  assert (P0 : VPre a w0) by (eapply lv_VPre; eassumption).
  assert (R0 : reach a w0 t) by (eapply reach_kgrow; [exact R|apply Q0]).
  assert (Lt0 : live (gr w0) (tn t) = true) by apply live_goc_task.
  assert (J0 : J w0) by (apply (ap_geq HP w); [exact G0|apply Q0|exact Hj]).
  apply (okJ_pre _ w w0); [exact G0|].
  destruct (memN t (consistent w0)) eqn:Mc.
  { pose proof (consistent_out a w0 t P0 R0 Mc) as Ho. destruct (get_task_output w0 t); [apply ret_J; exact J0|contradiction Ho; reflexivity]. }
  assert (HreqV : VREQ (require_with OC (make_consistent_td RC OC P f))) by (apply (require_with_V RC); exact IHV).
  assert (HreqJ : REQ (require_with OC (make_consistent_td RC OC P f))) by (apply (ap_req HP); [exact IHV|apply (ap_td HP)|exact IH]).
  assert (EX : forall w1, VPre a w1 -> reach a w1 t -> live (gr w1) (tn t) = true -> J w1 ->
            okJ a w1 (bind (execute_with RC OC P (require_with OC (make_consistent_td RC OC P f)) w1 t) (fun o w2 => Done o (mark_consistent w2 t)))).
  { intros w1 P1 R1 Lt1 J1. apply bind_J; [apply (ap_exec HP); assumption|]. intros o w2 _ J2. apply quiet_J; [apply mark_geq|reflexivity|exact J2]. }
  destruct (get_task_output w0 t) as [o0|] eqn:Ho; [|apply EX; assumption].
  (* the recorded dependencies are validated under the anchor t; the caller's anchor sees what t guarantees *)
  eapply holds_bind; [exact (check_deps_J _ t IHV IH (deps_of_task w0 t) w0 (VPre_strengthen a t w0 P0 R0) (deps_DR w0 t (proj1 L0))
                                (deps_good w0 t o0 (proj1 L0) (proj1 (proj2 P0)) Ho) J0)|].
  intros ok w1 E [J1 S1]. destruct (check_deps_pre RC OC P f a w0 t o0 ok w1 P0 R0 Ho E) as [P1 [R1 [_ [M1 _]]]].
  apply (okJ_preG a w0 w1); [exact (ap_weaken HP a t w0 w1 R0 S1)|].
  destruct (if ok then get_task_output w1 t else None) as [o|].
  - apply quiet_J; [apply mark_geq|reflexivity|exact J1].
  - apply EX; [exact P1|exact R1|apply M1; exact Lt0|exact J1].
Qed.

Definition JBU (fuel : nat) : Prop :=
  (forall a w t, VPre a w -> live (gr w) (tn t) = true -> reach a w t -> J w -> okJ a w (bu_execute_and_schedule RC OC P fuel w t)) /\
  JMC (bu_make_consistent RC OC P fuel) /\
  (forall a w t, VPre a w -> reach a w t -> J w -> okJ a w (bu_require_scheduled_now RC OC P fuel w t)).

Lemma popped_J w m : J w -> J (popped w m).
Proof. apply J_same; reflexivity. Qed.

Theorem bottom_up_J fuel : JBU fuel.
Proof.
  induction fuel as [|f [IH1 [IH2 IH3]]]; [repeat split; intros; exact Logic.I|].
  destruct (bu_VMC RC OC P f (bottom_up_V RC OC P f)) as [HmcV HreqV].
  assert (HreqJ : REQ (require_bu_with OC (bu_make_consistent RC OC P f))) by (apply (ap_req_bu HP); [exact HmcV|apply (ap_bu HP)|exact IH2]).
  split; [|split].
  - intros a w t Hw Lt R Hj. rewrite bes_S. apply bind_J; [apply (ap_exec HP); assumption|]. intros o w1 _ J1.
    apply quiet_J; [apply schedule_after_geq| |exact J1]. destruct (schedule_after_split RC OC w1 t o) as [wm [Hl E]]. rewrite E. apply Hl.
  - intros a w t Hw Lt R Hj. rewrite bmc_S. destruct (memN t (consistent w)) eqn:Mc.
    { pose proof (consistent_out a w t Hw R Mc) as Ho. destruct (get_task_output w t); [apply ret_J; exact Hj|contradiction Ho; reflexivity]. }
    destruct ((match get_task_output w t with None => true | Some _ => false end) && negb (memN t (queue w)))%bool eqn:Cond;
      [apply (ap_exec HP); assumption|].
    apply bind_J; [apply IH3; assumption|]. intros r w1 E J1. destruct r as [o|]; [apply ret_J; exact J1|].
    destruct (get_task_output w1 t) as [o|] eqn:Ho1; [apply ret_J; exact J1|]. exfalso.
    (* nothing was pulled for t: its output is as before and it is not queued, so it would have been executed as new *)
    destruct (proj2 (proj2 (bottom_up_V RC OC P f)) a w t Hw R) as [_ XO]. rewrite E in XO. destruct XO as [Y1 Y2].
    rewrite <- Y1, Ho1 in Cond. cbn in Cond. apply memN_false in Y2. rewrite Y2 in Cond. discriminate.
  - intros a w t Hw R Hj. destruct (rsn_cases RC OC P f a w t Hw R) as [_|w1 W1 P1 R1 Lm1 _|m w1 W1 _ P1 R1 Lm1 Pm1 _].
    + apply ret_J; exact Hj.
    + subst w1. apply (okJ_pre _ w (popped w t)); [apply geq_same; reflexivity|].
      apply bind_J; [apply IH1; [exact P1|exact Lm1|exact R1|apply popped_J; exact Hj]|]. intros o w2 _ J2. apply ret_J; exact J2.
    + subst w1. apply (okJ_pre _ w (popped w m)); [apply geq_same; reflexivity|].
      (* m is executed under the anchor t *)
      eapply holds_bind; [exact (IH1 (Some t) _ m (VPre_strengthen a t _ P1 R1) Lm1 ltac:(intros c Hc; inversion Hc; subst c; exact Pm1) (popped_J w m Hj))|].
      intros o w2 E [J2 S2]. destruct (bes_pre2 RC OC P f a t (popped w m) m o w2 P1 R1 Lm1 Pm1 E) as [P2 [R2 _]].
      apply (okJ_preG a (popped w m) w2); [exact (ap_weaken HP a t _ w2 R1 S2)|]. apply IH3; assumption.
Qed.

Theorem execute_scheduled_J fuel : forall w, VPre None w -> J w -> endJ (execute_scheduled RC OC P fuel w).
Proof.
  induction fuel as [|f IH]; intros w Hw Hj; [exact Logic.I|]. rewrite es_S.
  destruct (queue_pop w) as [[t w1]|] eqn:X; [|exact Hj].
  destruct (queue_pop_V w t w1 Hw X) as [W1 [Lt1 P1]].
  assert (R1 : reach None w1 t) by (intros c Hc; discriminate).
  eapply holds_bind; [apply (proj1 (bottom_up_J f) None w1 t P1 Lt1 R1); rewrite W1; apply popped_J; exact Hj|].
  intros o w2 E [J2 _]. apply IH; [apply (bes_pre RC OC P f None w1 t o w2 P1 Lt1 R1 E)|exact J2].
Qed.

Variable always : ocid.

Lemma session_require_J fuel w t : VS w -> J w -> endJ (session_require RC OC P always fuel w t).
Proof.
  intros Sw Hj. unfold session_require, require_td.
  pose proof (ap_top HP _ (emit (set_cur w None) EBuildStart) t always
                (ap_req HP _ (make_consistent_td_V RC OC P fuel) (ap_td HP fuel) (make_consistent_td_J fuel)) (build_start_V w Sw) eq_refl
                (J_same w (emit (set_cur w None) EBuildStart) eq_refl eq_refl Hj)) as X.
  eapply holds_bind; [exact X|]. intros o w2 _ J2. apply (J_same w2); [reflexivity|reflexivity|exact J2].
Qed.

Lemma sched_J w w' : chain sstep w w' -> J w -> J w'.
Proof. intros C. apply (ap_geq HP); [apply sched_geq; exact C|apply (sched_lv w w' C)]. Qed.

Lemma session_bottom_up_J fuel w ch : VS w -> J w -> endJ (session_bottom_up RC OC P fuel w ch).
Proof.
  intros Sw Hj. unfold session_bottom_up. cbv zeta. destruct (sched_changed_VS RC w ch Sw) as [C01 S1].
  set (w1 := fold_left (schedule_tasks_affected_by RC) ch (set_queue w [])) in *.
  assert (J1 : J w1) by (apply (sched_J _ _ C01), (J_same w); [reflexivity|reflexivity|exact Hj]).
  pose proof (execute_scheduled_J fuel _ (build_start_V w1 S1) (J_same w1 (emit (set_cur w1 None) EBuildStart) eq_refl eq_refl J1)) as X.
  eapply holds_bind; [exact X|]. intros u w3 _ J3. apply (J_same w3); [reflexivity|reflexivity|exact J3].
Qed.

Variable ga : akind -> Prop.
Hypothesis Ab_ga : forall k w, user_abort k -> Ab w -> ga k /\ J w.

Lemma run_history_J fuel h : forall w, Hinv w /\ J w ->
  Forall (Forall (res_ok ga)) (fst (run_history RC OC P always fuel w h)) /\ Hinv (snd (run_history RC OC P always fuel w h)) /\ J (snd (run_history RC OC P always fuel w h)).
Proof.
  assert (S : forall A (m : outcome A), okVS m -> endJ m -> sesA (fun w => Hinv w /\ J w) (fun w => VS w /\ J w) ga m).
  { intros A m. destruct m; cbn; [intros X Y; split; assumption|intros [X1 X2] Y; destruct (Ab_ga _ _ X1 Y); split; [assumption|split; assumption]|trivial]. }
  apply (run_history_any RC OC P always (fun w => Hinv w /\ J w) (fun w => VS w /\ J w) ga).
  - intros w [Hw Hj]. split; [apply VS_Hinv; exact Hw|exact Hj].
  - intros f w t [Hw Hj]. apply S; [apply session_require_V; exact Hw|apply session_require_J; assumption].
  - intros f w ch [Hw Hj]. apply S; [apply session_bottom_up_V; exact Hw|apply session_bottom_up_J; assumption].
  - intros w [Hw Hj]. split; [apply VS_new_session; exact Hw|apply (J_same w); [reflexivity|reflexivity|exact Hj]].
  - intros w r v [Hw Hj]. split; [apply Hinv_set_content; exact Hw|apply (J_same w); [destruct v; reflexivity|destruct v; reflexivity|exact Hj]].
  - intros w e [Hw Hj]. split; [apply Hinv_set_env; exact Hw|apply (J_same w); [reflexivity|reflexivity|exact Hj]].
Qed.
End Pass.

Section CA.
Variable RC : rcid -> rchecker.
Variable OC : ocid -> ochecker.
Variable P : task -> prog.
Variable sf : rcid -> res -> content -> Z.
Hypothesis HS : forall c env r v, rc_stamp (RC c) env r v = inl (sf c r v).
Hypothesis HNR : forall t, NR [] (P t).

Notation K := (K RC OC P sf).
Notation Rep := (Rep RC OC sf).

Lemma geq_K w w' : geq w w' -> outs w' = outs w -> K w -> K w'.
Proof.
  intros G O. apply K_frame. intros t _. unfold get_task_output, kidsT, row. rewrite O. split; [reflexivity|]. split; [apply G|apply G].
Qed.

Lemma leaf_EqS c w w' : WF (gr w) -> Leaf c w w' -> EqS c w w'.
Proof.
  intros W LF n Pn. assert (Hn : n <> tn c) by (intros ->; exact (WF_acyclic (gr w) (tn c) W Pn)).
  split; [apply (lf_grows _ _ _ LF); exact Hn|intros e; apply (lf_eother _ _ _ LF); exact Hn].
Qed.

Definition outKA {A} (m : outcome A) (Q : world -> Prop) : Prop :=
  match m with Done _ w' => K w' /\ Q w' | Abort _ w' => K w' | OutOfFuel => True end.

Definition KAREQ (req : world -> task -> ocid -> outcome Z) : Prop :=
  (forall w x c, VPre (cur w) w -> K w -> outKA (req w x c) (EqC w)) /\
  (forall w x c t o w', VPre (cur w) w -> K w -> cur w = Some t -> ~ In (tn x) (kidsT w t) -> req w x c = Done o w' ->
     RowStep t w w' (tn x) (DRequire x c (oc_stamp (OC c) o))).
Definition KAMC (mc : world -> task -> outcome Z) : Prop :=
  forall a w t, VPre a w -> live (gr w) (tn t) = true -> reach a w t -> K w -> outKA (mc w t) (EqF a w).

Lemma cur_no_output a w t : VPre a w -> cur w = Some t -> get_task_output w t = None.
Proof. intros [_ [_ [_ [Oo Cu]]]] Hc. apply Oo. apply Cu. exact Hc. Qed.

Lemma rw_KA {X} t (o : rwop X) w : VPre (Some t) w -> cur w = Some t -> K w ->
  match run_rw RC o w with
  | Done _ w1 => VPre (Some t) w1 /\ cur w1 = Some t /\ K w1 /\ EqS t w w1
  | Abort _ w1 => K w1
  | OutOfFuel => True
  end.
Proof.
  intros Hw Hc Kw. pose proof (proj1 (rw_chain_leaf t w _ (proj1 (proj1 (proj1 Hw))) Hc (run_rw_chain RC o w))) as LF.
  pose proof (run_rw_R RC o w (proj1 (proj1 Hw))) as RR. pose proof (rw_VPre RC (Some t) o w) as SP.
  destruct (run_rw RC o w) as [x w1|k w1|]; cbn [leafO okR] in *; [| |exact Logic.I].
  - destruct (SP x w1 Hw eq_refl) as [P1 [C1 _]]. split; [exact P1|]. split; [rewrite C1; exact Hc|].
    split; [apply (leaf_K RC OC P sf t w w1 LF (cur_no_output _ w t Hw Hc) Kw)|apply leaf_EqS; [apply Hw|exact LF]].
  - destruct LF as [->|[_ LF]]; [exfalso; apply (proj1 RR); reflexivity|]. apply (leaf_K RC OC P sf t w w1 LF (cur_no_output _ w t Hw Hc) Kw).
Qed.

Definition execKA (t : task) (w : world) (p : prog) (m : outcome Z) : Prop :=
  match m with
  | Done o w' => K w' /\ Rep (row w' t) p (kidsT w t) o (kidsT w' t) /\ (forall d, In d (kidsT w t) -> row w' t d = row w t d) /\ EqS t w w'
  | Abort _ w' => K w'
  | OutOfFuel => True
  end.

(* one more recorded dependency dp on d, then the rest p' of the run: a run of p, if dp on d is what p records first *)
Lemma row_step_KA t w w1 d dp p p' (m : outcome Z) :
  (forall D o kf, D d = Some dp -> Rep D p' (kidsT w t ++ [d]) o kf -> Rep D p (kidsT w t) o kf) ->
  RowStep t w w1 d dp -> ~ In d (kidsT w t) -> EqS t w w1 -> execKA t w1 p' m -> execKA t w p m.
Proof.
  intros HR [A [B C]] Hn E1 X. destruct m as [o w'|k w'|]; cbn [execKA] in *; [|exact X|exact Logic.I].
  rewrite A in X. destruct X as [K' [R' [St' E']]]. split; [exact K'|]. split; [|split; [|eapply EqS_trans; eassumption]].
  - apply HR; [|exact R']. rewrite St' by (apply in_or_app; right; left; reflexivity). exact B.
  - intros d' Hd. rewrite St' by (apply in_or_app; left; exact Hd). apply C. intros ->. contradiction.
Qed.

Lemma exec_prog_KA req t : VREQ req -> KAREQ req -> forall p w, VPre (Some t) w -> cur w = Some t -> K w -> NR (kidsT w t) p ->
  execKA t w p (exec_prog RC OC req p w).
Proof.
  intros [[HreqR HreqN] HreqV] [HQ HRow]. induction p as [o| |x c k IH|X o k IH] using prog_rw_ind; intros w Hw Hc Kw HN.
  - split; [exact Kw|]. split; [constructor|]. split; [reflexivity|apply EqS_refl].
  - exact Kw.
  - inversion HN as [| |sn x' c' k' Hx Hk| | |]; subst.
    assert (Hw' : VPre (cur w) w) by (rewrite Hc; exact Hw).
    cbn [exec_prog]. eapply holds_bind; [exact (HQ w x c Hw' Kw)|]. intros ox w1 E [K1 E1]. unfold EqC in E1. rewrite Hc in E1.
    destruct (step_pre (cur w) w _ ox w1 Hw' (HreqR w x c (proj1 (proj1 Hw))) (HreqN w x c (proj1 Hw')) (HreqV w x c Hw') E) as [P1 [C1 _]].
    rewrite Hc in P1, C1. pose proof (HRow w x c t ox w1 Hw' Kw Hc Hx E) as RS.
    apply (row_step_KA t w w1 _ _ _ (k (oc_view (OC c) ox))) with (2 := RS); [intros D o kf; apply Rep_req|exact Hx|exact E1|].
    apply IH; [exact P1|exact C1|exact K1|rewrite (proj1 RS); apply Hk].
  - destruct (NR_rw _ o k HN) as [Hx Hk]. rewrite exec_prog_rw.
    eapply holds_bind; [exact (rw_KA t o w Hw Hc Kw)|]. intros xv w1 E [P1 [C1 [K1 E1]]].
    destruct (run_rw_row RC sf HS o w t xv w1 (proj1 (proj1 (proj1 Hw))) Hc Hx E) as [-> RS].
    apply (row_step_KA t w w1 _ _ _ (k (rw_ans RC o (get_content w (rw_res o))))) with (2 := RS); [intros D o' kf; apply (Rep_rw RC OC sf)|exact Hx|exact E1|].
    apply IH; [exact P1|exact C1|exact K1|rewrite (proj1 RS); apply Hk].
Qed.

Lemma exec_start_KT w t : StoreOK w -> K w ->
  K (startw w t) /\ kidsT (startw w t) t = [].
Proof.
  intros H Kw. split; [apply (exec_start_K RC OC P sf w t H Kw)|exact (reset_task_kids w t H)].
Qed.

Lemma execute_with_KA req a w t : VREQ req -> KAREQ req -> VPre a w -> live (gr w) (tn t) = true -> reach a w t -> K w ->
  outKA (execute_with RC OC P req w t) (EqF a w).
Proof.
  intros Hreq HQ Hw Lt R Kw. rewrite execute_with_eq.
  destruct (exec_start_Pre a w t (proj1 Hw) Lt R) as [Hnot [P2 PR]].
  destruct (reset_task_facts w t (proj1 (proj1 (proj1 Hw)))) as [_ R2 _ _ _ _ R7].
  destruct (exec_start_KT w t (proj1 (proj1 (proj1 Hw))) Kw) as [K2 KT2].
  pose proof (exec_start_V w t (proj1 (proj1 (proj1 Hw))) (proj2 Hw) Hnot) as V2.
  set (w2 := startw w t) in *.
  pose proof (exec_prog_KA req t Hreq HQ (P t) w2 (conj P2 V2) eq_refl K2) as X. unfold execKA in X. rewrite KT2 in X.
  eapply holds_bind; [exact (X (HNR t))|]. intros o w3 _ [K3 [Rp3 [_ E3]]]. split.
  - intros y oy Hy. unfold endw in Hy. rewrite output_set in Hy. destruct (N.eqb_spec y t) as [->|Hne]; [inversion Hy; subst oy; exact Rp3|apply (K3 y oy Hy)].
  - (* everything the caller's anchor protects is a strict ancestor of t: untouched by the reset and by the body *)
    destruct a as [c|]; [|exact Logic.I]. specialize (R c eq_refl).
    assert (W : WF (gr w)) by apply Hw.
    assert (One : forall n, path (gr w) n (tn t) -> EqN w (set_task_output (set_cur (emit w3 (EExecEnd t o)) (cur (reset_task w t))) t o) n).
    { intros n Pn. assert (Hn : n <> tn t) by (intros ->; exact (WF_acyclic (gr w) (tn t) W Pn)).
      destruct (E3 n (PR n Pn)) as [A B]. split; [change (kids_of (gr w3) n = kids_of (gr w) n); rewrite A; apply (R2 n Hn)|].
      intros e. change (get_edata (gr w3) n e = get_edata (gr w) n e). rewrite B. apply (R7 n e Hn). }
    split; [intros n Pn; apply One; eapply path_trans; eassumption|apply One; exact R].
Qed.

Lemma lv_geq_K w w' : lv w w' -> geq w w' -> K w -> K w'.
Proof. intros Hl G. apply geq_K; [exact G|apply Hl]. Qed.

Lemma reserve_K w s t w3 : Reserved w s t w3 -> StoreOK w -> cur w = Some s -> K w -> K w3 /\ EqS s w w3.
Proof.
  intros RS H Hc Kw. pose proof (rs_leaf _ _ _ _ RS) as LF. split; [|apply leaf_EqS; [apply H|exact LF]].
  apply (leaf_K RC OC P sf s w w3 LF); [|exact Kw]. unfold get_task_output. rewrite <- (rs_outs _ _ _ _ RS).
  apply (cur_no_output (Some s) w3 s (rs_V _ _ _ _ RS)). rewrite (proj2 (proj2 (rs_q3 _ _ _ _ RS))). exact Hc.
Qed.
Lemma update_rows w s t dp :
  (forall n, n <> tn s -> EqN w (set_gr w (insert_edata (gr w) (tn s) (tn t) dp)) n) /\
  kidsT (set_gr w (insert_edata (gr w) (tn s) (tn t) dp)) s = kidsT w s /\ row (set_gr w (insert_edata (gr w) (tn s) (tn t) dp)) s (tn t) = Some dp /\
  forall d, d <> tn t -> row (set_gr w (insert_edata (gr w) (tn s) (tn t) dp)) s d = row w s d.
Proof.
  unfold row. cbn [gr set_gr]. split; [|split; [reflexivity|split]].
  - intros n Hn. split; [reflexivity|]. intros e. cbn [gr set_gr]. rewrite get_edata_insert.
    destruct (pair_eqb (tn s, tn t) (n, e)) eqn:Z; [apply pair_eqb_eq in Z; inversion Z; congruence|reflexivity].
  - rewrite get_edata_insert, (proj2 (pair_eqb_eq _ _) eq_refl). reflexivity.
  - intros d Hd. rewrite get_edata_insert. destruct (pair_eqb (tn s, tn t) (tn s, d)) eqn:Z; [apply pair_eqb_eq in Z; inversion Z; congruence|reflexivity].
Qed.

Lemma require_with_KA mc : VMC mc -> KAMC mc -> KAREQ (require_with OC mc).
Proof.
  intros HV HQ.
  assert (Main : forall w x c, VPre (cur w) w -> K w ->
     outKA (require_with OC mc w x c) (EqC w) /\
     (forall t o w', cur w = Some t -> ~ In (tn x) (kidsT w t) -> require_with OC mc w x c = Done o w' ->
        RowStep t w w' (tn x) (DRequire x c (oc_stamp (OC c) o)))).
  2:{ split; [intros w x c Hw Kw; apply (Main w x c Hw Kw)|]. intros w x c t o w' Hw Kw Hc Hx E. apply (proj2 (Main w x c Hw Kw) t o w' Hc Hx E). }
  intros w t c Hw Kw. unfold EqC. destruct (cur w) as [s|] eqn:Hc.
  2:{ destruct (require_with_top OC mc w t c ltac:(rewrite Hc; exact Hw) Hc HV) as [Q2 [P2 [Lt ->]]]. set (w2 := at_require w t c) in *.
      assert (K2 : K w2) by (apply (lv_geq_K w); [exact Q2|eapply geq_trans; [apply (geq_same w (emit w (ERequireStart t c))); reflexivity|apply geq_goc]|exact Kw]).
      split; [|intros t' o w' X; discriminate].
      eapply holds_bind; [exact (HQ None w2 t P2 Lt ltac:(intros c' X; discriminate) K2)|]. intros o w4 _ [K4 _].
      split; [|exact Logic.I]. apply (K_same RC OC P sf w4); [reflexivity|reflexivity|exact K4]. }
  assert (H : StoreOK w) by apply Hw.
  destruct (require_with_sub RC OC mc w t c s ltac:(rewrite Hc; exact Hw) Hc HV) as [ar [w3 [E [RS X]]]].
  destruct (reserve_K w s t w3 RS H Hc Kw) as [K3 S3].
  destruct ar; [destruct X as [Edge [R3 ->]]|rewrite X; split; [exact K3|intros t' o w' _ _ Y; discriminate]|destruct X].
  destruct RS as [P3 Q3 Lt3 _ _ _].
  pose proof (HQ (Some s) w3 t P3 Lt3 R3 K3) as MQ. pose proof (mc_pre mc (Some s) w3 t) as SP.
  destruct (mc w3 t) as [o w4|k w4|]; cbn [bind outKA] in *; [|split; [exact MQ|intros t' o w' _ _ X; discriminate]|split; [exact Logic.I|intros t' o w' _ _ X; discriminate]].
  destruct (SP o w4 HV P3 Lt3 R3 eq_refl) as [P4 [C4 _]]. destruct MQ as [K4 [S34 N34]].
  assert (C4' : cur w4 = Some s) by (rewrite C4, (proj2 (proj2 Q3)); exact Hc).
  unfold recorded. cbn [gr emit]. destruct (update_rows (emit w4 (ERequireEnd t c (oc_stamp (OC c) o) o)) s t (DRequire t c (oc_stamp (OC c) o))) as [Ins [KK6 [B6 C6]]].
  cbn [gr emit] in *. set (w6 := set_gr _ _) in *.
  split; [split|].
  - apply (K_frame RC OC P sf w4); [|exact K4]. intros y Hy. change (get_task_output w4 y <> None) in Hy.
    split; [reflexivity|]. apply (Ins (tn y)). intros X. apply tn_inj in X. subst y. exact (Hy (cur_no_output (Some s) w4 s P4 C4')).
  - eapply EqS_trans; [exact S3|]. eapply EqS_trans; [exact S34|].
    intros n Pn. apply Ins. intros ->. exact (WF_acyclic _ _ (proj1 (proj1 (proj1 (proj1 P4)))) Pn).
  - intros t' o' w' Ht' Hnew X. inversion Ht'; subst t'. inversion X; subst o' w'. clear X Ht'.
    destruct (reserve_row s w t c w3 H Hnew E) as [A3 [_ B3]]. destruct N34 as [K34 E34].
    split; [|split; [exact B6|]].
    + rewrite KK6. change (kids_of (gr w4) (tn s) = kidsT w s ++ [tn t]). rewrite K34. exact A3.
    + intros d' Hd. rewrite (C6 d' Hd). change (get_edata (gr w4) (tn s) d' = row w s d'). rewrite E34. apply B3. exact Hd.
Qed.

Lemma require_bu_with_KA mc : VMC mc -> KAMC mc -> KAREQ (require_bu_with OC mc).
Proof.
  intros HV HQ. destruct (require_with_KA mc HV HQ) as [Q1 Q2]. split.
  - intros w x c Hw Kw. unfold require_bu_with. eapply holds_bind; [exact (Q1 w x c Hw Kw)|]. intros o w' _ [K1 E1]. split; [apply (geq_K w'); [apply mark_geq|reflexivity|exact K1]|].
    unfold EqC in *. destruct (cur w); [|exact Logic.I]. eapply EqS_trans; [exact E1|apply geq_EqS; apply mark_geq].
  - intros w x c t o w' Hw Kw Hc Hx E. unfold require_bu_with in E.
    apply bind_done in E as (o1 & w1 & E1 & E). inversion E; subst o w'.
    apply (Q2 w x c t o1 w1 Hw Kw Hc Hx E1).
Qed.

Lemma KA_pass : APass RC OC P K EqF K (fun _ => True) KAREQ.
Proof.
  constructor.
  - exact geq_K.
  - exact EqF_refl.
  - exact EqF_trans.
  - exact geq_EqF.
  - intros a t w w' R [S _]. eapply EqS_to_EqF; eassumption.
  - trivial.
  - trivial.
  - intros mc HV _. apply require_with_KA, HV.
  - intros mc HV _. apply require_bu_with_KA, HV.
  - intros req a w t HV HQ. apply execute_with_KA; assumption.
  - intros req w t c [HQ _] Hw _ Kw. specialize (HQ w t c Hw Kw). destruct (req w t c); [apply HQ|exact HQ|exact Logic.I].
Qed.

Lemma outKA_pre {A} (m : outcome A) a w w2 : geq w w2 -> outKA m (EqF a w2) -> outKA m (EqF a w).
Proof. exact (okJ_pre RC OC P K EqF K _ KAREQ KA_pass a w w2 m). Qed.
Lemma check_deps_KA mc t0 : VMC mc -> KAMC mc -> forall ds w, VPre (Some t0) w -> DR t0 w ds -> DGood ds -> K w ->
  outKA (check_deps RC OC mc ds w) (EqF (Some t0) w).
Proof. exact (check_deps_J RC OC P K EqF K _ KAREQ KA_pass mc t0). Qed.
Theorem make_consistent_td_KA fuel : KAMC (make_consistent_td RC OC P fuel).
Proof. exact (make_consistent_td_J RC OC P K EqF K _ KAREQ KA_pass fuel). Qed.

Definition KABU (fuel : nat) : Prop :=
  (forall a w t, VPre a w -> live (gr w) (tn t) = true -> reach a w t -> K w -> outKA (bu_execute_and_schedule RC OC P fuel w t) (EqF a w)) /\
  KAMC (bu_make_consistent RC OC P fuel) /\
  (forall a w t, VPre a w -> reach a w t -> K w -> outKA (bu_require_scheduled_now RC OC P fuel w t) (EqF a w)).
Theorem bottom_up_KA fuel : KABU fuel.
Proof. exact (bottom_up_J RC OC P K EqF K _ KAREQ KA_pass fuel). Qed.
Theorem execute_scheduled_KA fuel : forall w, VPre None w -> K w -> match execute_scheduled RC OC P fuel w with Done _ w' | Abort _ w' => K w' | OutOfFuel => True end.
Proof. exact (execute_scheduled_J RC OC P K EqF K _ KAREQ KA_pass fuel). Qed.

Variable always : ocid.

Lemma session_require_KA fuel w t : VS w -> K w ->
  match session_require RC OC P always fuel w t with Done _ w' | Abort _ w' => K w' | OutOfFuel => True end.
Proof. exact (session_require_J RC OC P K EqF K _ KAREQ KA_pass always fuel w t). Qed.
Lemma schedule_tasks_affected_by_K w r : K w -> K (schedule_tasks_affected_by RC w r).
Proof. apply lv_geq_K; [apply schedule_tasks_affected_by_lv|apply sched_geq, schedule_tasks_affected_by_chain]. Qed.
Lemma session_bottom_up_KA fuel w ch : VS w -> K w ->
  match session_bottom_up RC OC P fuel w ch with Done _ w' | Abort _ w' => K w' | OutOfFuel => True end.
Proof. exact (session_bottom_up_J RC OC P K EqF K _ KAREQ KA_pass fuel w ch). Qed.

Lemma run_history_VKA fuel h : forall w, Hinv w /\ K w ->
  Forall (Forall good_res) (fst (run_history RC OC P always fuel w h)) /\ Hinv (snd (run_history RC OC P always fuel w h)) /\ K (snd (run_history RC OC P always fuel w h)).
Proof. exact (run_history_J RC OC P K EqF K _ KAREQ KA_pass always user_abort (fun k w X Y => conj X Y) fuel h). Qed.

Theorem run_history_KA fuel h : forall w, Hinv w -> K w -> K (snd (run_history RC OC P always fuel w h)).
Proof. intros w Hw Kw. apply (run_history_VKA fuel h w (conj Hw Kw)). Qed.

(* C08, EVERY history (top-down, bottom-up and mixed sessions, aborted builds): for every task with an output the store's
   dependency list is exactly one complete run of its program *)
Theorem exact_record_any_history fuel h t o :
  let w := snd (run_history RC OC P always fuel init_world h) in
  get_task_output w t = Some o -> Rep (row w t) (P t) [] o (kidsT w t).
Proof.
  intros w. apply (run_history_KA fuel h init_world); [apply Hinv_init|apply K_init].
Qed.

End CA.
