(* C06, "re-execution of the same writer, however it is reached, is never reported as an overlap": every execution starts with
   reset_task, and after it the task is not a recorded writer of any resource -- so whatever overlap its writes meet names a
   DIFFERENT task.  For every world satisfying the store invariant (every reachable world), every task and resource. *)
From Coq Require Import List NArith ZArith Bool Lia.
From PieV Require Import Model.Build Proofs.StoreInv Proofs.Effects Proofs.ExecInv.
Import ListNotations.
Open Scope N_scope.

Lemma StoreOK_reset_task w t : StoreOK w -> StoreOK (reset_task w t).
Proof. intros H. exact (rt_ok w t (reset_task_facts w t H)). Qed.

Theorem reset_task_clears_own_writes w t r wr :
  StoreOK w -> get_task_writing_to_resource (reset_task w t) r = Some wr -> wr <> t.
Proof.
  intros H X E. subst wr.
  destruct (writer_edge (reset_task w t) r t (StoreOK_reset_task w t H) X) as [dp [R _]].
  rewrite (rt_row w t (reset_task_facts w t H)) in R. discriminate.
Qed.

Corollary own_earlier_write_is_no_overlap w t r :
  StoreOK w -> get_task_writing_to_resource w r = Some t ->
  get_task_writing_to_resource (reset_task w t) r <> Some t.
Proof. intros H _ X. exact (reset_task_clears_own_writes w t r t H X eq_refl). Qed.
