(* C09 / C18, forward direction for top-down validation: in every session (requires, bottom-up builds, any mix, completed or
   aborted, from any store, for all programs and checkers), a dependency check of the top-down validation whose checker did not
   say "consistent" (inconsistent, or failed with an error) is directly followed by the start of an execution -- no further
   check, no require end, no reuse of the cached output -- of the owner of the dependency (mc_failed_check_executes_owner).
   It is read off the language of session streams defined here (sguard; Sess; S_kept, S_kept_td: every interpreter keeps to
   it), as are what an execution start can come after (ExecJust.v; Justify.v for one make_task_consistent) and the agreement
   of execution events and outputs (ExecEnd.v). *)
From Coq Require Import List NArith ZArith Bool.
From PieV Require Import Model.Dag Model.Build Proofs.Justify Proofs.InvE Proofs.BuJust.
Import ListNotations.
Open Scope N_scope.

Definition failing (e : event) : bool :=
  match e with
  | ECheckTaskEnd _ _ _ b => b
  | ECheckResEnd _ _ _ Consistent => false
  | ECheckResEnd _ _ _ _ => true
  | _ => false
  end.
Lemma failed_failing d e : failed d e -> failing e = true.
Proof.
  destruct d as [[| | |]|]; cbn; try contradiction; [intros ->; reflexivity|intros [[| |] [N ->]]; [contradiction|reflexivity..]..].
Qed.
Definition headok (tr : list event) : Prop := match tr with e :: _ => failing e = false | [] => True end.

Lemma calm_failing e : calm e = true -> failing e = false.
Proof. destruct e; cbn; try (intros _; reflexivity); [destruct inconsistent|destruct result]; cbn; congruence. Qed.

Section SessWords.
Variable o0 : list (task * Z).       (* the task outputs *)
Variable q0 : list task.             (* and the queue when the segment began *)

(* after a failing check end comes an execution start and nothing else; an execution of t that does not start there is of a
   task that was queued or scheduled, or has no output; a scheduling comes directly after a bottom-up check of its task that
   did not say "consistent" *)
Definition sguard (e : event) (pre : list event) : Prop :=
  match kind e with
  | KSched t => match pre with f :: _ => incons_end t f | [] => False end
  | KStart t => headok pre -> In t q0 \/ In (ESchedTask t) pre \/ out_of o0 pre t = None
  | _ => headok pre
  end.

Lemma sguard_after_failing x e pre : sguard x (e :: pre) -> failing e = true -> exists t, x = EExecStart t.
Proof.
  unfold sguard. intros G He. pose proof (kind_spec x) as K. destruct (kind x) as [t|t|t o|]; cbn [headok] in G; try congruence; [|exists t; exact K].
  destruct e; try contradiction; discriminate.
Qed.
Lemma S_failed_spec seg : Lang sguard seg -> headok seg -> forall post e pre, seg = post ++ e :: pre -> failing e = true ->
  exists post' t, post = post' ++ [EExecStart t].
Proof.
  intros L Hh post e pre -> He. destruct post as [|y post] using rev_ind; [cbn in Hh; congruence|].
  rewrite <- app_assoc in L. destruct (sguard_after_failing y e pre (Lang_split _ _ _ _ L) He) as [t ->]. exists post, t. reflexivity.
Qed.
End SessWords.

Section Sess.
Variable w0 : world.                 (* the world in which the segment began *)

Record Sseg (w : world) (seg : list event) : Prop := mkS {
  s_w : follows w0 w seg;
  s_q : forall t, In t (queue w) -> In t (queue w0) \/ In (ESchedTask t) seg;
  s_lang : Lang (sguard (outs w0) (queue w0)) seg
}.
Definition Sess (w : world) : Prop := exists seg, Sseg w seg /\ headok seg.
(* where execute_with is called, possibly directly after a failing check *)
Definition SessX (w : world) (t : task) : Prop := exists seg, Sseg w seg /\ sguard (outs w0) (queue w0) (EExecStart t) seg.

Lemma S_more w w' e seg : follows w0 w' (e :: seg) -> (forall x, In x (queue w') -> In x (queue w)) ->
  sguard (outs w0) (queue w0) e seg -> Sseg w seg -> Sseg w' (e :: seg).
Proof.
  intros F Q G [_ A3 A4]. constructor; [exact F| |split; assumption].
  intros x H. destruct (A3 x (Q x H)) as [Y|Y]; [left; exact Y|right; right; exact Y].
Qed.
Lemma S_other w w' e seg : Sseg w seg -> headok seg -> kind e = KOther -> trace w' = e :: trace w ->
  (forall x, In x (queue w') -> In x (queue w)) -> outs w' = outs w -> errs w' = raised e ++ errs w -> Sseg w' (e :: seg).
Proof.
  intros Hs Hh Pe T Q O E. destruct (other_word (outs w0) e seg Pe) as [_ [Oe _]].
  apply (S_more w); [exact (follows_other w0 w w' e seg Oe T O E (s_w _ _ Hs))|exact Q|unfold sguard; rewrite Pe; exact Hh|exact Hs].
Qed.
Lemma S_same w w' seg : trace w' = trace w -> (forall x, In x (queue w') -> In x (queue w)) -> outs w' = outs w -> errs w' = errs w ->
  Sseg w seg -> Sseg w' seg.
Proof. intros T Q O E [A1 A3 A4]. constructor; [exact (follows_same w0 w w' seg T O E A1)|intros t H; exact (A3 t (Q t H))|exact A4]. Qed.

Lemma sched_S w w2 t e :
  Sess w -> kind e = KOther -> incons_end t e -> trace w2 = e :: trace w -> queue w2 = queue w -> outs w2 = outs w ->
  errs w2 = raised e ++ errs w -> Sess (queue_add (emit w2 (ESchedTask t)) t).
Proof.
  intros [seg [Hs Hh]] Pe He T Q O E. destruct (S_other w w2 e seg Hs Hh Pe T) as [A1 A3 A4]; [intros x; rewrite Q; trivial|exact O|exact E|].
  destruct (queue_add_fields (emit w2 (ESchedTask t)) t) as [TQ [OQ [EQ QQ]]]. exists (ESchedTask t :: e :: seg). split; [constructor|reflexivity].
  - apply (follows_other w0 w2); [reflexivity|exact TQ|exact OQ|exact EQ|exact A1].
  - intros x H. apply QQ in H. destruct H as [H| ->]; [|right; left; reflexivity].
    destruct (A3 x H) as [Y|Y]; [left; exact Y|right; right; exact Y].
  - split; [exact He|exact A4].
Qed.

Theorem S_kept : Kept Sess SessX.
Proof.
  constructor.
  - intros w w' [T [Q [O E]]] [seg [Hs Hh]]. exists seg. split; [|exact Hh]. apply (S_same w); [exact T|intros x; rewrite Q; trivial|exact O|exact E|exact Hs].
  - intros w e He [seg [Hs Hh]]. exists (e :: seg). split; [|apply calm_failing; exact He].
    apply (S_other w); [exact Hs|exact Hh|apply calm_other; exact He|reflexivity|trivial|reflexivity|rewrite (calm_raised e He); reflexivity].
  - intros w t [seg [Hs G]]. exists (EExecStart t :: seg). split; [|reflexivity].
    apply (S_more w); [apply follows_start, Hs|trivial|exact G|exact Hs].
  - intros w t o c [seg [Hs Hh]]. exists (EExecEnd t o :: seg). split; [|reflexivity].
    apply (S_more w); [apply follows_end, Hs|trivial|exact Hh|exact Hs].
  - intros w t c st x Hx Hw. apply (sched_S w _ t (ECheckReadResEnd t c st x)); [exact Hw|reflexivity|split; [reflexivity|exact Hx]|destruct x; reflexivity..].
  - intros w t c st Hw. apply (sched_S w _ t (ECheckReqTaskEnd t c st true)); [exact Hw|reflexivity|split; reflexivity|reflexivity..].
  - intros w t [seg [Hs Hh]] Hin. exists seg. split; [apply (S_same w); [reflexivity|intros x H; apply popped_queue in H; apply H|reflexivity..|exact Hs]|].
    intros _. destruct (s_q _ _ Hs t Hin) as [Y|Y]; [left; exact Y|right; left; exact Y].
  - intros w t [seg [Hs Hh]] Ho _. exists seg. split; [exact Hs|]. intros _. right. right. rewrite <- (proj1 (proj2 (s_w _ _ Hs))). exact Ho.
Qed.
Theorem S_kept_td : KeptTd Sess SessX.
Proof.
  constructor.
  - intros w d c st t [seg [Hs Hh]]. exists (ECheckTaskEnd d c st true :: seg). split; [|intros H; discriminate H].
    apply (S_other w); [exact Hs|exact Hh|reflexivity|reflexivity|trivial|reflexivity|reflexivity].
  - intros w r c st x t Hx [seg [Hs Hh]]. exists (ECheckResEnd r c st x :: seg). split; [|destruct x; [contradiction|intros H; discriminate H..]].
    apply (S_other w); [exact Hs|exact Hh|reflexivity|..]; destruct x; trivial.
  - intros w t [seg [Hs Hh]] Ho. exists seg. split; [exact Hs|]. intros _. right. right. rewrite <- (proj1 (proj2 (s_w _ _ Hs))). exact Ho.
  - intros w [seg [Hs Hh]]. exists seg. split; [|exact Hh]. apply (S_same w); [reflexivity|intros x []|reflexivity..|exact Hs].
Qed.

Lemma S_failed w : trace w0 = [] -> Sess w -> forall post e pre, trace w = post ++ e :: pre -> failing e = true ->
  exists post' t, post = post' ++ [EExecStart t].
Proof. intros T0 [seg [[[A1 _] _ A4] Hh]]. rewrite T0, app_nil_r in A1. rewrite A1. exact (S_failed_spec _ _ seg A4 Hh). Qed.

End Sess.

Lemma S_start w : Sess w w.
Proof. exists []. split; [constructor; [repeat split|intros t H; left; exact H|exact I]|exact I]. Qed.

Section TF.
Variable RC : rcid -> rchecker.
Variable OC : ocid -> ochecker.
Variable P : task -> prog.
Variable always : ocid.

Theorem session_lang fuel w ops : Sess (new_session w) (snd (run_session RC OC P always fuel (new_session w) ops)).
Proof. apply (kept_run_session RC OC P _ _ (S_kept _) (S_kept_td _)), S_start. Qed.

Theorem session_failed_check_then_execution fuel w ops :
  let w' := snd (run_session RC OC P always fuel (new_session w) ops) in
  forall post e pre, trace w' = post ++ e :: pre -> failing e = true ->
    exists post' t, post = post' ++ [EExecStart t].
Proof.
  apply (S_failed (new_session w)); [reflexivity|apply session_lang].
Qed.

(* which task: the owner.  When the validation of t's recorded dependencies answers "inconsistent", the failing check end is the
   last event, it belongs to one of t's recorded dependencies, and make_task_consistent goes on to EXECUTE t from that world:
   the next event is EExecStart t -- the cached output is not reused. *)
Theorem mc_failed_check_executes_owner f w t o0 w1 :
  let w0 := get_or_create_task_node w t in
  memN t (consistent w0) = false -> get_task_output w0 t = Some o0 ->
  check_deps RC OC (make_consistent_td RC OC P f) (deps_of_task w0 t) w0 = Done false w1 ->
  (exists d e, In d (deps_of_task w0 t) /\ failed d e /\ hd_error (trace w1) = Some e /\ failing e = true) /\
  make_consistent_td RC OC P (Datatypes.S f) w t =
    bind (exec_prog RC OC (require_with OC (make_consistent_td RC OC P f)) (P t) (emit (set_cur (reset_task w1 t) (Some t)) (EExecStart t)))
      (fun o w3 => Done o (mark_consistent (set_task_output (set_cur (emit w3 (EExecEnd t o)) (cur (reset_task w1 t))) t o) t)).
Proof.
  intros w0 Hm Ho CD. split.
  - destruct (check_deps_false RC OC _ _ _ _ CD) as [d [e [A [B C]]]]. exists d, e. repeat split; try assumption. exact (failed_failing d e B).
  - cbn [make_consistent_td]. fold w0. rewrite Hm, Ho, CD. cbn [bind]. unfold execute_with.
    destruct (exec_prog _ _ _ _ _); reflexivity.
Qed.

End TF.
