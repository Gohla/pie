(* Sessions during which resources change from outside (Build.run_msession), and sessions that are used on after a caught abort
   (Build.run_zsession): the model of what the correspondence runs explore
   when the session contract "no external change while a Session is alive" is broken.
   - conservative: without edits it is run_session (so every theorem about sessions applies to the edit-free case);
   - the store invariants and the event-stream theorems that do not depend on resource contents survive such edits: no "node
     missing" internal error and a well-formed store; a failing top-down check is directly followed by an execution start; every
     execution start is justified; every checker error is reported. *)
From Coq Require Import List NArith ZArith Bool Lia.
From PieV Require Import Model.Build Proofs.NoBug4All Proofs.InvE Proofs.BuJust Proofs.TdForward.
From PieV Require Proofs.ExecJust Proofs.ErrRep.
Import ListNotations.
Open Scope N_scope.

Section Mid.
Variable RC : rcid -> rchecker.
Variable OC : ocid -> ochecker.
Variable P : task -> prog.
Variable always : ocid.

Theorem run_msession_plain fuel ops : forall w,
  run_msession RC OC P always fuel w (map MSop ops) = run_session RC OC P always fuel w ops.
Proof.
  induction ops as [|o tl IH]; intros w; cbn [map run_msession run_session]; [reflexivity|].
  destruct (run_sop RC OC P always fuel w o) as [[x|k|] w']; [rewrite IH; reflexivity|reflexivity|reflexivity].
Qed.

Lemma run_msession_inv (I : world -> Prop) fuel :
  (forall w o, I w -> I (snd (run_sop RC OC P always fuel w o))) -> (forall w r v, I w -> I (set_content w r v)) ->
  forall ops w, I w -> I (snd (run_msession RC OC P always fuel w ops)).
Proof.
  intros Hs He. induction ops as [|o tl IH]; intros w Hw; cbn [run_msession]; [exact Hw|].
  destruct o as [o|r v]; [|apply IH, He; exact Hw].
  pose proof (Hs w o Hw) as X. destruct (run_sop RC OC P always fuel w o) as [[x|k|] w']; cbn [snd] in *; [|exact X|exact X].
  specialize (IH w' X). destruct (run_msession RC OC P always fuel w' tl) as [rs w'']. exact IH.
Qed.

Theorem msession_store_invariants fuel ops w : L w -> L (snd (run_msession RC OC P always fuel (new_session w) ops)).
Proof.
  intros HL. apply (run_msession_inv L fuel); [intros w0 o H; apply (run_sop_R RC OC P always fuel w0 o H)|intros; apply L_set_content; assumption|apply L_new_session; exact HL].
Qed.

(* the invariants of the passes over the tracker stream do not speak of resource contents *)
Lemma kept_msession I X : Kept I X -> KeptTd I X -> forall fuel ops w, I w -> I (snd (run_msession RC OC P always fuel w ops)).
Proof.
  intros K KT fuel. apply run_msession_inv; [intros w o; apply (kept_run_sop RC OC P I X K KT)|intros w r v; apply (kept_set_content I X K)].
Qed.

Theorem msession_failed_check_then_execution fuel w ops :
  let w' := snd (run_msession RC OC P always fuel (new_session w) ops) in
  forall post e pre, trace w' = post ++ e :: pre -> TdForward.failing e = true ->
    exists post' t, post = post' ++ [EExecStart t].
Proof. apply (S_failed (new_session w)); [reflexivity|]. apply (kept_msession _ _ (S_kept _) (S_kept_td _)), (S_start (new_session w)). Qed.

Theorem msession_executions_justified fuel w ops :
  let tr := trace (snd (run_msession RC OC P always fuel (new_session w) ops)) in
  (forall post t pre, tr = post ++ EExecStart t :: pre ->
     ExecJust.head_failing pre \/ In (ESchedTask t) pre \/ get_task_output w t = None \/ In (EExecStart t) pre) /\
  (forall post t pre, tr = post ++ ESchedTask t :: pre -> exists e pre', pre = e :: pre' /\ incons_end t e).
Proof. apply ExecJust.S_just_spec, (kept_msession _ _ (S_kept _) (S_kept_td _)), (S_start (new_session w)). Qed.

Theorem msession_errors_reported fuel w ops :
  let w' := snd (run_msession RC OC P always fuel (new_session w) ops) in
  forall ev x, In ev (trace w') -> ErrRep.errev ev = Some x -> In x (errs w').
Proof. apply (ErrRep.S_R (new_session w)); [intros ev x []|]. apply (kept_msession _ _ (S_kept _) (S_kept_td _)), (S_start (new_session w)). Qed.

Lemma run_zsession_inv (I : world -> Prop) fuel :
  (forall w o, I w -> I (snd (run_sop RC OC P always fuel w o))) -> (forall w r v, I w -> I (set_content w r v)) ->
  forall ops w, I w -> I (snd (run_zsession RC OC P always fuel w ops)).
Proof.
  intros Hs He. induction ops as [|o tl IH]; intros w Hw; cbn [run_zsession]; [exact Hw|].
  destruct o as [o|r v]; [|apply IH, He; exact Hw].
  pose proof (Hs w o Hw) as X. destruct (run_sop RC OC P always fuel w o) as [[x|k|] w']; cbn [snd] in *; [| |exact X];
    (specialize (IH w' X); destruct (run_zsession RC OC P always fuel w' tl) as [rs w'']; exact IH).
Qed.

Theorem run_zsession_plain fuel ops : forall w, Forall (fun r => exists x, r = RDone x) (fst (run_session RC OC P always fuel w ops)) ->
  run_zsession RC OC P always fuel w (map MSop ops) = run_session RC OC P always fuel w ops.
Proof.
  induction ops as [|o tl IH]; intros w H; cbn [map run_zsession run_session] in *; [reflexivity|].
  destruct (run_sop RC OC P always fuel w o) as [[x|k|] w'].
  - destruct (run_session RC OC P always fuel w' tl) as [rs w''] eqn:E. cbn [fst] in H. inversion H; subst.
    rewrite IH; [rewrite E; reflexivity|rewrite E; assumption].
  - cbn [fst] in H. inversion H as [|r0 l0 [y Y] _]; discriminate.
  - reflexivity.
Qed.

Theorem zsession_store_invariants fuel ops w : L w -> L (snd (run_zsession RC OC P always fuel (new_session w) ops)).
Proof.
  intros HL. apply (run_zsession_inv L fuel); [intros w0 o H; apply (run_sop_R RC OC P always fuel w0 o H)|intros; apply L_set_content; assumption|apply L_new_session; exact HL].
Qed.

Lemma kept_zsession I X : Kept I X -> KeptTd I X -> forall fuel ops w, I w -> I (snd (run_zsession RC OC P always fuel w ops)).
Proof.
  intros K KT fuel. apply run_zsession_inv; [intros w o; apply (kept_run_sop RC OC P I X K KT)|intros w r v; apply (kept_set_content I X K)].
Qed.

Theorem zsession_failed_check_then_execution fuel w ops :
  let w' := snd (run_zsession RC OC P always fuel (new_session w) ops) in
  forall post e pre, trace w' = post ++ e :: pre -> TdForward.failing e = true ->
    exists post' t, post = post' ++ [EExecStart t].
Proof. apply (S_failed (new_session w)); [reflexivity|]. apply (kept_zsession _ _ (S_kept _) (S_kept_td _)), (S_start (new_session w)). Qed.

Theorem zsession_executions_justified fuel w ops :
  let tr := trace (snd (run_zsession RC OC P always fuel (new_session w) ops)) in
  (forall post t pre, tr = post ++ EExecStart t :: pre ->
     ExecJust.head_failing pre \/ In (ESchedTask t) pre \/ get_task_output w t = None \/ In (EExecStart t) pre) /\
  (forall post t pre, tr = post ++ ESchedTask t :: pre -> exists e pre', pre = e :: pre' /\ incons_end t e).
Proof. apply ExecJust.S_just_spec, (kept_zsession _ _ (S_kept _) (S_kept_td _)), (S_start (new_session w)). Qed.

Theorem zsession_errors_reported fuel w ops :
  let w' := snd (run_zsession RC OC P always fuel (new_session w) ops) in
  forall ev x, In ev (trace w') -> ErrRep.errev ev = Some x -> In x (errs w').
Proof. apply (ErrRep.S_R (new_session w)); [intros ev x []|]. apply (kept_zsession _ _ (S_kept _) (S_kept_td _)), (S_start (new_session w)). Qed.

End Mid.
