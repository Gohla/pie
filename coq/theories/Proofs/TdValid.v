(* C03.  AllValid ("every recorded dependency of every task that has an output is accepted by its checker") is preserved by every
   session of top-down requires -- of known tasks (they execute nothing: Idem.v) and of NEW tasks (they execute, record fresh and
   therefore consistent dependencies, and have no dependents) -- in the static class with reflexive checkers.  Together with
   UpToDate.v: AllValid is an invariant of every history in which each batch of external changes is followed by a
   session that starts with a bottom-up build told about every changed resource. *)
From Coq Require Import List NArith ZArith Bool Lia.
From PieV Require Import Model.Dag Model.Build Proofs.Steps Proofs.Local Proofs.Local2 Proofs.DagWF Proofs.DagPath Proofs.StoreInv
  Proofs.ExecInv Proofs.ExecSession Proofs.Cert Proofs.Stable Proofs.NoAbort
  Proofs.NoBug4All Proofs.NoReentry Proofs.NoBugAll Proofs.CertAll Proofs.NoAbortAll Proofs.HasOut
  Proofs.Idem Proofs.OnceAll Proofs.UpToDate.
Import ListNotations.
Open Scope N_scope.

Section TV.
Variable gen : res -> option task.
Variable wck : rcid -> Prop.
Variable ord : task -> nat.
Variable RC : rcid -> rchecker.
Variable OC : ocid -> ochecker.
Variable P : task -> prog.
Variable sf : rcid -> res -> content -> Z.
Hypothesis HS : forall c env r v, rc_stamp (RC c) env r v = inl (sf c r v).
Hypothesis HWF : forall t, WFP gen wck t [] (P t).
Hypothesis HWO : forall t, WFO ord t (P t).
Hypothesis HRefl : forall c env r v, rc_check (RC c) env r v (sf c r v) = Consistent.
Hypothesis HReflO : forall c o, oc_check (OC c) o (oc_stamp (OC c) o) = true.
Let HNR : forall t, NR [] (P t). Proof. intros t. eapply WFP_NR. apply HWF. Qed.

Notation K := (K RC OC P sf).
Notation Q := (Q gen ord).
Notation Om := (Om gen).
Notation B := (B gen ord RC OC P sf).
Notation mc := (make_consistent_td RC OC P).

Notation Psi3 := (Psi3 gen RC OC).
Notation AllValid := (AllValid RC OC).

(* the set X at which the re-validation lemmas of Idem.v are used *)
Definition Xo (w : world) : list task := map fst (outs w).
Lemma Xo_in w x : In x (Xo w) <-> get_task_output w x <> None. Proof. unfold Xo. symmetry. apply alookup_in. Qed.
Lemma valid_of_Psi (F : task -> Prop) w : Q w -> queue w = [] -> (forall t, opn w t -> F t) -> Psi3 None None F w -> ValidX RC OC (Xo w) w.
Proof. intros Hq Qe HF [[HT _] HN]. exact (AllValid_ValidX RC OC w (PhiT_AllValid gen ord RC OC F w Hq Qe HF HN HT)). Qed.
Lemma validx_reach X w c x : StoreOK w -> ValidX RC OC X w -> In c X -> RT w c x -> In x X.
Proof.
  intros HS0 VX. apply (RT_closed w (fun a => In a X) HS0). intros a y Ca E.
  destruct (task_edge w a y HS0 E) as [Ed|[c' [st Ed]]]; [destruct (proj2 (VX a Ca) _ _ Ed)|exact (proj1 (proj2 (VX a Ca) _ _ Ed))].
Qed.

(* a re-validation (Idem.Quiet) leaves every row as it is: the rows of the task nodes by qt_rows, and no other node has a row *)
Lemma Quiet_geq w w' : StoreOK w -> Quiet w w' -> geq w w'.
Proof.
  intros HS0 Qt n. destruct (is_tn n) eqn:T; [rewrite (even_tn n T); exact (qt_rows _ _ Qt (un n))|].
  assert (No : forall v, StoreOK v -> kids_of (gr v) n = [] /\ forall e, get_edata (gr v) n e = None).
  { intros v Hv. assert (K0 : forall x, ~ In x (kids_of (gr v) n)) by (intros x X; pose proof (path_src_task _ n x Hv (path1 _ _ _ X)); congruence).
    split; [destruct (kids_of (gr v) n) as [|x l]; [reflexivity|destruct (K0 x (or_introl eq_refl))]|].
    intros e. destruct (get_edata (gr v) n e) eqn:E; [|reflexivity]. destruct (K0 e). apply (wf_edata _ (proj1 Hv)). rewrite E. discriminate. }
  destruct (No w HS0) as [A1 A2]. destruct (No w' (qt_ok _ _ Qt)) as [B1 B2]. split; [congruence|intros e; rewrite A2, B2; reflexivity].
Qed.
Lemma Quiet_qk w w' : StoreOK w -> Quiet w w' -> opens (trace w') = opens (trace w) -> queue w' = queue w -> qk w w'.
Proof.
  intros HS0 Qt Op Qu. split; [exact (Quiet_geq w w' HS0 Qt)|]. split; [|split; [exact Op|rewrite Qu; trivial]].
  split; [apply (qt_content _ _ Qt)|split; [apply (qt_env _ _ Qt)|apply (qt_outs _ _ Qt)]].
Qed.
Lemma Om_revalidated w w' : StoreOK w -> V w -> queue w = [] -> ValidX RC OC (Xo w) w -> Quiet w w' ->
  opens (trace w') = opens (trace w) -> queue w' = queue w -> (forall c, isC w' c -> isC w c \/ In c (Xo w)) -> Om w -> Om w'.
Proof.
  intros HS0 HV Qe VX Qt Op Qu HM [A [C D]]. pose proof (Quiet_geq w w' HS0 Qt) as G.
  split; [|split].
  - intros c x Hc R. apply (geq_RT w w' c x G) in R. unfold opn. rewrite Op, Qu. destruct (HM c Hc) as [Y|Y]; [apply (A c x Y R)|].
    pose proof (validx_reach (Xo w) w c x HS0 VX Y R) as Ix. apply Xo_in in Ix. split; [|rewrite Qe; intros []].
    intros Ox. apply Ix. apply (proj1 (proj2 (proj2 HV))). exact Ox.
  - intros x y Ox N. unfold opn in Ox. rewrite Op in Ox. apply (qt_mono _ _ Qt). apply (C x y Ox). exact (geq_needs gen w w' x y G N).
  - intros x Ox. unfold opn in Ox. rewrite Op in Ox. rewrite Qu. apply D. exact Ox.
Qed.

Definition rqt (f : nat) := require_with OC (make_consistent_td RC OC P f).
Notation okB := (okB gen ord RC OC P sf).

Lemma td_facts f :
  NoBugAll.VMC (mc f) /\ NoBugAll.VREQ (rqt f) /\ CertAll.KAREQ RC OC P sf (rqt f) /\ NoAbortAll.AREQ gen ord RC OC P sf (rqt f) /\ HasOut.HREQ (rqt f).
Proof.
  pose proof (NoBugAll.make_consistent_td_V RC OC P f) as HV. pose proof (CertAll.make_consistent_td_KA RC OC P sf HS HNR f) as HQ.
  pose proof (NoAbortAll.make_consistent_td_A gen wck ord RC OC P sf HS HWF HWO f) as HA.
  split; [exact HV|]. split; [apply (NoBugAll.require_with_V RC); exact HV|]. split; [apply (CertAll.require_with_KA RC OC P sf); assumption|].
  split; [apply NoAbortAll.require_with_A; assumption|].
  apply (HasOut.require_td_H RC OC P f).
Qed.
Lemma BMCt f a w t : B a w -> live (gr w) (tn t) = true -> reach a w t -> okB a w (mc f w t).
Proof.
  intros HB0 Lt R. pose proof HB0 as [Hw [Kw [Hq Hh]]]. destruct (td_facts f) as [F1 _].
  eapply (pack gen ord RC OC P sf); [exact HB0|apply (NoBug4All.make_consistent_td_R RC OC P f); [apply Hw|exact Lt]|apply (proj2 (proj1 F1)); [apply Hw|exact Lt|exact R]|
    apply (proj2 F1 a w t Hw Lt R)|apply (CertAll.make_consistent_td_KA RC OC P sf HS HNR f a); assumption|
    apply (NoAbortAll.make_consistent_td_A gen wck ord RC OC P sf HS HWF HWO f a); assumption|apply (HasOut.make_consistent_td_H RC OC P f); [apply Hw|exact Hh]].
Qed.
Lemma BREQt f w x c s : B (Some s) w -> cur w = Some s -> (ord x < ord s)%nat -> ~ In (tn x) (kidsT w s) ->
  okB (Some s) w (rqt f w x c) /\ (forall o w', rqt f w x c = Done o w' -> RowStep s w w' (tn x) (DRequire x c (oc_stamp (OC c) o))).
Proof. exact (BREQg gen ord RC OC P sf (rqt f) w x c s (proj2 (td_facts f))). Qed.
(* what a top-down build carries through OnceAll.execute_with_X beside Om and TT: it pops nothing (own = None), the queue stays
   empty, and every executing task is in F, since only tasks without an output execute (known tasks are re-validated) *)
Definition XT (own e : option task) (F : task -> Prop) (w : world) : Prop :=
  own = None /\ queue w = [] /\ (forall t, opn w t -> F t) /\ Psi3 None e F w.
Lemma XT_carried : Carried gen ord RC OC P sf XT.
Proof.
  constructor.
  - intros A o F t w xv w1 Eq LS HB0 Hc HO Hx Hcl [E0 [Qe [HFo HP]]]. split; [exact E0|]. split; [rewrite (ls_queue _ _ _ _ _ _ _ _ _ _ _ LS); exact Qe|].
    split; [intros t0; unfold opn; rewrite (q3_opens w w1 (ls_q3 _ _ _ _ _ _ _ _ _ _ _ LS)); apply HFo|].
    apply (Psi3_rw gen ord RC OC P sf HS HRefl o F t w xv w1 Eq LS HB0 Hc HO Hx Hcl HP).
  - intros F s x w w3 Ho RS RW [E0 [Qe [HFo HP]]]. split; [exact E0|]. split; [rewrite (proj1 (rs_same _ _ _ _ RS)); exact Qe|].
    split; [intros t0; unfold opn; rewrite (q3_opens _ _ (rs_q3 _ _ _ _ RS)); apply HFo|apply (Psi3_reserve gen RC OC F s x w w3 Ho RS RW HP)].
  - intros own e F w ev Hev [E0 [Qe [HFo HP]]]. split; [exact E0|]. split; [exact Qe|].
    split; [intros t0; unfold opn; cbn [trace emit]; rewrite (opens_ev3 ev _ Hev); apply HFo|apply (Psi3_qk gen RC OC None e F w); [apply qk_emit; exact Hev|exact HP]].
  - intros F s x c o w Ho Hx [E0 [Qe [HFo HP]]]. split; [exact E0|]. split; [exact Qe|]. split; [exact HFo|apply (Psi3_update gen RC OC HReflO None None F s x c o w Ho Hx HP)].
  - intros own e F w t [E0 [Qe [HFo HP]]]. split; [exact E0|]. split; [exact Qe|]. split; [exact HFo|apply (Psi3_qk gen RC OC None e F w); [apply qk_mark|exact HP]].
  - intros isnew a F w t HB0 HO HP Hnot Hnew [E0 [Qe [HFo HP3]]]. destruct isnew; [|discriminate E0]. split; [reflexivity|]. split; [exact Qe|].
    split; [|apply (Psi3_start gen ord RC OC P sf true a F w t HB0 HO HP Hnot Hnew HP3)].
    intros x Ox. apply opn_start in Ox. destruct Ox as [->|Ox]; [left; split; reflexivity|right; exact (HFo x Ox)].
  - intros isnew F w t o c B3 O3 Ot3 F3 NFt [E0 [Qe [HFo HP3]]]. split; [reflexivity|]. split; [exact Qe|].
    split; [|apply (Psi3_end gen ord RC OC P sf isnew F w t o c B3 O3 Ot3 F3 NFt HP3)].
    intros x Ox. apply opn_end in Ox. destruct Ox as [Ox Hx]. destruct (HFo x Ox) as [[_ ->]|Y]; [contradiction|exact Y].
Qed.

Definition TInv (F : task -> Prop) (w : world) : Prop := Om w /\ TT None w /\ XT None None F w.
Lemma TInv_quiet (F : task -> Prop) w w' : qq w w' -> qk w w' -> TInv F w -> TInv F w'.
Proof.
  intros QQ QK [HO [HT [E0 [Qe [HFo HP]]]]]. split; [exact (Om_qq gen w w' QQ HO)|]. split; [exact (TT_qq None w w' QQ HT)|]. split; [exact E0|].
  split; [destruct (queue w') as [|x l] eqn:E; [reflexivity|]; pose proof (proj2 (proj2 (proj2 QQ)) x ltac:(rewrite E; left; reflexivity)) as Y; rewrite Qe in Y; destruct Y|].
  split; [intros t0; unfold opn; rewrite (proj1 (proj2 (proj2 QK))); apply HFo|exact (Psi3_qk gen RC OC None None F w w' QK HP)].
Qed.
Definition TMC (f : nat) : Prop :=
  forall (F : task -> Prop) a w t, B a w -> live (gr w) (tn t) = true -> reach a w t -> (ord t < f)%nat -> Om w -> TT None w -> Fopen F w ->
    XT None None F w -> okO (mc f w t) (fun _ w' => Om w' /\ TT None w' /\ XT None None F w' /\ isC w' t).

(* the top-down interpreters never touch the bottom-up queue: "the queue is q" is kept by every step but scheduling and popping *)
Lemma queue_goc_task w t : queue (get_or_create_task_node w t) = queue w. Proof. destruct (goc_task_gr w t) as [g ->]. reflexivity. Qed.
Lemma queue_sinv q : SInv (fun _ w => queue w = q).
Proof.
  constructor; cbn beta.
  - intros _ w w' _ S. rewrite (proj1 (lstep_fields w w' S)). trivial.
  - intros _ w w' _ _ _ Qe. rewrite Qe. trivial.
  - intros _ w t _. rewrite queue_goc_task. trivial.
  - intros _ w s d _ _ Hw. destruct (add_dependency_gr w s d DReserved) as [g ->]. exact Hw.
  - intros _ _ w X. exact X.
  - intros _ _ w _ X. exact X.
  - intros _ w t _ X. exact X.
  - intros _ w t o c X. exact X.
  - intros _ w s t c st _ X. exact X.
Qed.
Definition qsame {A} (w : world) (m : outcome A) : Prop := match m with Done _ w' => queue w' = queue w | _ => True end.
Lemma mc_qsame f w t : StoreOK w -> qsame w (make_consistent_td RC OC P f w t).
Proof. intros H. exact (make_consistent_td_I RC OC P _ (queue_sinv (queue w)) f [t] w t H eq_refl). Qed.
Lemma require_with_T f : TMC f -> XREQ gen ord RC OC P sf XT (fun s => (ord s <= f)%nat) (rqt f).
Proof.
  intros HM F w x c s Hsf HB0 Hc Ho Hn HO HT HF HFO HXw.
  destruct (BREQt f w x c s HB0 Hc Ho Hn) as [BQ RSQ]. split; [exact BQ|]. split; [exact RSQ|]. clear BQ RSQ. unfold rqt.
  destruct (require_B gen ord RC OC P sf _ w s x c (proj1 (td_facts f)) HB0 Hc Ho Hn) as [[w3 ->]|[w3 [RS [RW [B3 [C3 [R3 ->]]]]]]]; [exact Logic.I|].
  pose proof (rs_live _ _ _ _ RS) as Lt3. pose proof (q3_opens _ _ (rs_q3 _ _ _ _ RS)) as Op3.
  pose proof (cur_opn gen ord RC OC P sf _ w s HB0 Hc) as Os.
  pose proof (reserve_Om gen ord RC OC P sf w s x w3 HB0 Hc RS RW HO) as O3.
  pose proof (q3_TT None w w3 (rs_q3 _ _ _ _ RS) (proj1 (proj2 (rs_same _ _ _ _ RS))) HT) as TT3.
  pose proof (x_reserve _ _ _ _ _ _ _ XT_carried F s x w w3 (open_no_output gen ord RC OC P sf _ w s HB0 Os) RS RW HXw) as X3.
  eapply holds_bind; [exact (HM F (Some s) w3 x B3 Lt3 R3 ltac:(lia) O3 TT3 (Fopen_opens F w w3 Op3 HFO) X3)|]. intros o w4 E [O4 [T4 [X4 Cx4]]].
  destruct (holds_done (BMCt f (Some s) w3 x B3 Lt3 R3) E) as [B4 [C4 [_ [_ Op4]]]].
  pose proof (holds_done (td_out RC OC P f w3 x) E) as MOut.
  set (st := oc_stamp (OC c) o). set (w5 := emit w4 (ERequireEnd x c st o)). cbn [holds]. unfold recorded.
  assert (Os4 : opn w4 s) by (unfold opn; rewrite Op4, Op3; exact Os).
  assert (QQ5 : qq w4 w5) by (apply qq_emit; reflexivity).
  split; [apply (Om_update gen); [exact Os4|exact Cx4|apply (Om_qq gen w4 w5 QQ5 O4)]|].
  split; [apply (TT_same None w5); [reflexivity|reflexivity|apply (TT_qq None w4 w5 QQ5 T4)]|].
  apply (x_update _ _ _ _ _ _ _ XT_carried F s x c o w5); [exact (open_no_output gen ord RC OC P sf _ w4 s B4 Os4)|exact MOut|apply (x_emit _ _ _ _ _ _ _ XT_carried); [reflexivity|exact X4]].
Qed.

Lemma TT_revalidated e w w' : Quiet w w' -> opens (trace w') = opens (trace w) -> TT e w -> TT e w'.
Proof.
  intros Qt Op [A0 B0]. destruct (qt_seg _ _ Qt) as [seg [T Ex]]. unfold TT, isC, opn. rewrite Op, T, execs_app, execs_rev, Ex. cbn [rev app].
  split; [exact A0|]. intros x Hx. destruct (B0 x Hx) as [Y|Y]; [left; exact (qt_mono _ _ Qt x Y)|right; exact Y].
Qed.

Theorem make_consistent_td_T : forall f, TMC f.
Proof.
  induction f as [|f IH]; intros F a w t HB0 Lt R Hf HO HT HFO HXw; [lia|]. pose proof HXw as [_ [Qe [HFo HP]]].
  pose proof (BMCt (S f) a w t HB0 Lt R) as MB. pose proof (mc_qsame (S f) w t (B_S gen ord RC OC P sf _ w HB0)) as MQ.
  destruct (get_task_output w t) as [o0|] eqn:Ho.
  - assert (VX : ValidX RC OC (Xo w) w) by (apply (valid_of_Psi F w (proj1 (proj2 (proj2 HB0))) Qe HFo HP)).
    assert (Ht : In t (Xo w)) by (apply Xo_in; rewrite Ho; discriminate).
    destruct (idem_mc gen ord RC OC P (S f) (Xo w) w t VX Ht (B_S gen ord RC OC P sf _ w HB0) (proj1 (proj2 (proj2 HB0))) Hf) as [o' [w' [E [_ [Qt [_ HMk]]]]]].
    pose proof (proj2 (make_consistent_returns_cached RC OC P (S f) w t o' w' E)) as Ct.
    rewrite E in *. cbn [okO OnceAll.okB qsame] in *. destruct MB as [B' [_ [_ [_ Op']]]].
    split; [apply (Om_revalidated w w' (B_S gen ord RC OC P sf _ w HB0) (B_V gen ord RC OC P sf _ w HB0) Qe VX Qt Op' MQ HMk HO)|].
    split; [apply (TT_revalidated None w w' Qt Op' HT)|]. split; [|exact Ct]. split; [reflexivity|]. split; [rewrite MQ; exact Qe|].
    split; [intros t0; unfold opn; rewrite Op'; apply HFo|apply (Psi3_qk gen RC OC None None F w w' (Quiet_qk w w' (B_S gen ord RC OC P sf _ w HB0) Qt Op' MQ) HP)].
  - cbn [make_consistent_td] in *. set (w0 := get_or_create_task_node w t) in *.
    assert (QQ0 : qq w w0) by apply qq_goc_task. assert (QK0 : qk w w0) by apply qk_goc_task. pose proof (proj1 (proj2 (proj2 QK0))) as Op0.
    assert (Ho0 : get_task_output w0 t = None) by (unfold w0, get_or_create_task_node; destruct (live _ _); exact Ho).
    destruct (memN t (consistent w0)); [rewrite Ho0; exact Logic.I|]. rewrite Ho0 in *.
    assert (L0 : L w0) by (apply goc_task_L; apply HB0).
    assert (B0 : B a w0) by exact (B_lv gen ord RC OC P sf a w w0 (lv_goc w (tn t)) (geq_goc w (tn t)) L0 HB0).
    destruct (TInv_quiet F w w0 QQ0 QK0 (conj HO (conj HT HXw))) as [O0 [T0 X0]]. pose proof (proj1 (proj2 X0)) as Qe0.
    assert (R0 : reach a w0 t) by (eapply reach_kgrow; [exact R|apply (proj1 (lv_goc w (tn t)))]).
    assert (HP0 : P3 w0 t).
    { intros c Hc Rc. apply (reachC_out gen w0 c t (B_S gen ord RC OC P sf _ w0 B0) (B_V gen ord RC OC P sf _ w0 B0) (proj2 (proj2 (proj2 B0))) O0 Hc Rc). exact Ho0. }
    eapply holds_bind; [exact (execute_with_X gen wck ord RC OC P sf HS HWF HWO XT XT_carried (fun s => (ord s <= f)%nat) (rqt f) a w0 t F true (require_with_T f IH) ltac:(cbn beta; lia) B0 (live_goc_task w t) R0
                  O0 T0 HP0 ltac:(rewrite Qe0; intros []) (fun _ => Ho0) (Fopen_opens F w w0 Op0 HFO) X0)|].
    intros o w2 _ [O2 [T2 [Fin2 [_ X2]]]].
    split; [apply Om_mark; assumption|]. split; [apply TT_mark; exact T2|]. split; [apply (x_mark _ _ _ _ _ _ _ XT_carried); exact X2|apply isC_mark; left; reflexivity].
Qed.
Variable always : ocid.
Notation NoF := (fun _ : task => False).

Lemma TInv_AllValid (F : task -> Prop) w : Q w -> TInv F w -> AllValid w.
Proof. intros Hq [_ [_ [_ [Qe [HF [[HT _] HN]]]]]]. exact (PhiT_AllValid gen ord RC OC F w Hq Qe HF HN HT). Qed.
Lemma AllValid_TInv w : consistent w = [] -> trace w = [] -> queue w = [] -> AllValid w -> TInv NoF w.
Proof.
  intros Cs Tr Qe AV. assert (Op : forall t, ~ opn w t) by (intros t; unfold opn; rewrite Tr; intros []).
  split; [|split; [unfold TT; rewrite Tr; split; [constructor|intros x []]|split; [reflexivity|split; [exact Qe|split; [intros t Ot; exact (Op t Ot)|]]]]].
  - split; [|split]; [intros c x Hc; unfold isC in Hc; rewrite Cs in Hc; discriminate|intros x y Ox; destruct (Op x Ox)|intros x Ox; destruct (Op x Ox)].
  - split; [split|intros t []]; [intros x _ Ox d dp R; left; exact (AV x Ox d dp R)|intros t Ot; destruct (Op t Ot)].
Qed.

Lemma session_require_T fuel w t : VS w -> K w -> Q w -> HB w -> (ord t < fuel)%nat -> TInv NoF w ->
  okO (session_require RC OC P always fuel w t) (fun _ w' => TInv NoF w').
Proof.
  intros [[Hw Hc] HV] Kw Hq Hh Hf TI. unfold session_require, require_td.
  set (w1 := emit (set_cur w None) EBuildStart).
  assert (QQ1 : qq w w1) by (eapply qq_trans; [apply (qq_same w (set_cur w None)); trivial|apply qq_emit; reflexivity]).
  assert (QK1 : qk w w1) by (eapply qk_trans; [apply (qk_same w (set_cur w None)); trivial|apply qk_emit; reflexivity]).
  set (w2 := at_require w1 t always).
  assert (QQ2 : qq w w2) by (eapply qq_trans; [exact QQ1|]; eapply qq_trans; [apply (qq_emit w1 (ERequireStart t always)); reflexivity|apply qq_goc_task]).
  assert (QK2 : qk w w2) by (eapply qk_trans; [exact QK1|]; eapply qk_trans; [apply (qk_emit w1 (ERequireStart t always)); reflexivity|apply qk_goc_task]).
  assert (Q1l : lv w w2).
  { eapply lv_trans; [apply (lv_same w (set_cur w None)); try reflexivity; [cbn; symmetry; exact Hc|trivial]|].
    eapply lv_trans; [apply (lv_emit (set_cur w None) EBuildStart); reflexivity|]. eapply lv_trans; [apply (lv_emit w1 (ERequireStart t always)); reflexivity|apply lv_goc]. }
  assert (L2 : L w2) by (apply goc_task_L; apply L_emit; apply L_emit, L_set_cur_none; apply Hw).
  pose proof (B_lv gen ord RC OC P sf None w w2 Q1l (proj1 QQ2) L2 (conj (conj Hw HV) (conj Kw (conj Hq Hh)))) as B2.
  destruct (TInv_quiet NoF w w2 QQ2 QK2 TI) as [O2 [T2 X2]].
  pose proof (make_consistent_td_T fuel NoF None w2 t B2 (live_goc_task _ t) ltac:(intros c X; discriminate) Hf O2 T2 ltac:(intros t0 []) X2) as MO.
  destruct (require_with_top OC (mc fuel) w1 t always (build_start_V w (conj (conj Hw Hc) HV)) eq_refl (proj1 (td_facts fuel))) as [_ [_ [_ ->]]].
  fold w2. rewrite bind_assoc. eapply holds_bind; [exact MO|]. intros o w4 _ [O4 [T4 [X4 _]]]. cbn [bind holds].
  apply (TInv_quiet NoF w4); [eapply qq_trans; apply qq_emit; reflexivity|eapply qk_trans; apply qk_emit; reflexivity|exact (conj O4 (conj T4 X4))].
Qed.

Theorem requires_keep_AllValid fuel h ops :
  let wh := snd (run_history RC OC P always fuel init_world h) in
  AllValid wh -> roots_below ord fuel ops ->
  AllValid (snd (run_history RC OC P always fuel init_world (h ++ [HSession ops]))).
Proof.
  intros wh AV RB. rewrite (run_history_session RC OC P always). fold wh.
  pose proof (history_SB gen wck ord RC OC P sf HS HWF HWO always fuel h) as SBw. fold wh in SBw. set (w := new_session wh) in *.
  assert (I0 : TInv NoF w) by (apply AllValid_TInv; try reflexivity; exact AV).
  assert (X : (fun v => SB gen ord RC OC P sf v /\ TInv NoF v) (snd (run_session RC OC P always fuel w ops))).
  { apply (run_session_lift RC OC P always (fun v => SB gen ord RC OC P sf v /\ TInv NoF v) (fun v => SB gen ord RC OC P sf v /\ TInv NoF v) (fun _ => True) (req_below ord));
      [trivial|trivial| |intros f v ch []|apply roots_req; exact RB|exact (conj SBw I0)].
    intros f v t Hf [S0 T0]. pose proof (session_require_SB gen wck ord RC OC P sf HS HWF HWO always (SB gen ord RC OC P sf) f v t S0) as Y.
    pose proof (session_require_T f v t (proj1 (proj1 S0)) (proj1 (proj2 (proj1 S0))) (proj2 (proj2 (proj1 S0))) (proj2 S0) Hf T0) as TT0.
    destruct (session_require RC OC P always f v t) as [x w'|k w'|]; cbn in *; [split; assumption|destruct Y as [[] _]|exact Logic.I]. }
  destruct (run_session RC OC P always fuel w ops) as [rs v]. destruct X as [S1 T1]. apply (TInv_AllValid NoF); [apply S1|exact T1].
Qed.
End TV.

(* the first build of an instance: nothing has an output before it, so the premise holds for an empty reason *)
Theorem first_session_AllValid gen wck ord RC OC P sf always
  (HS : forall c env r v, rc_stamp (RC c) env r v = inl (sf c r v)) (HWF : forall t, WFP gen wck t [] (P t)) (HWO : forall t, WFO ord t (P t))
  (HRefl : forall c env r v, rc_check (RC c) env r v (sf c r v) = Consistent) (HReflO : forall c o, oc_check (OC c) o (oc_stamp (OC c) o) = true)
  fuel edits ops : roots_below ord fuel ops ->
  AllValid RC OC (snd (run_history RC OC P always fuel init_world (edits_of edits ++ [HSession ops]))).
Proof.
  intros RB. apply (requires_keep_AllValid gen wck ord RC OC P sf HS HWF HWO HRefl HReflO always fuel (edits_of edits) ops); [|exact RB].
  intros x Ox. contradiction Ox. unfold get_task_output. rewrite (proj1 (proj2 (edits_same RC OC P always fuel edits init_world))). reflexivity.
Qed.
