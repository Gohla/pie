(* C12: each built-in output checker decides exactly its documented relation, for all payload types with decidable equality. *)
From Coq Require Import List NArith Bool.
From PieV Require Import Model.Checkers.

(* MapRes.opt_eqb, FileRes.optN_eqb and FileRes.optH_eqb are eq_opt at Z.eqb, N.eqb and the equality of hashes, by conversion *)
Lemma eq_opt_spec {A} (eqA : A -> A -> bool) : (forall x y, eqA x y = true <-> x = y) -> forall a b,
  eq_opt eqA a b = true <-> a = b.
Proof.
  intros spec [x|] [y|]; cbn; try (split; [discriminate|intros X; inversion X]); [|tauto].
  rewrite spec. split; intros X; [subst; reflexivity|inversion X; reflexivity].
Qed.

Section P.
Variables T E : Type.
Variable eqT : T -> T -> bool.
Variable eqE : E -> E -> bool.
Hypothesis eqT_spec : forall a b, eqT a b = true <-> a = b.
Hypothesis eqE_spec : forall a b, eqE a b = true <-> a = b.
Notation out := (result T E).

Lemma eq_out_spec (a b : out) : eq_out T E eqT eqE a b = true <-> a = b.
Proof.
  destruct a, b; cbn; try (split; intros H; [discriminate|inversion H]).
  - rewrite eqT_spec. split; intros H; [subst; reflexivity|inversion H; reflexivity].
  - rewrite eqE_spec. split; intros H; [subst; reflexivity|inversion H; reflexivity].
Qed.

Definition rel_equals (o1 o2 : out) : Prop := o1 = o2.
Definition rel_ok_equals (o1 o2 : out) : Prop :=
  match o1, o2 with Ok a, Ok b => a = b | Err _, Err _ => True | _, _ => False end.
Definition rel_err_equals (o1 o2 : out) : Prop :=
  match o1, o2 with Err a, Err b => a = b | Ok _, Ok _ => True | _, _ => False end.
Definition rel_result (o1 o2 : out) : Prop :=
  match o1, o2 with Ok _, Ok _ => True | Err _, Err _ => True | _, _ => False end.

Theorem equals_decides o1 o2 : equals_check T E eqT eqE o1 (equals_stamp T E o2) = false <-> rel_equals o1 o2.
Proof. unfold equals_check, equals_stamp, rel_equals. rewrite negb_false_iff. apply eq_out_spec. Qed.

Theorem ok_equals_decides o1 o2 : ok_equals_check T E eqT o1 (ok_equals_stamp T E o2) = false <-> rel_ok_equals o1 o2.
Proof.
  unfold ok_equals_check, ok_equals_stamp, rel_ok_equals. rewrite negb_false_iff.
  destruct o1, o2; cbn.
  - apply eqT_spec.
  - split; [discriminate|contradiction].
  - split; [discriminate|contradiction].
  - split; [intros _; exact I|reflexivity].
Qed.

Theorem err_equals_decides o1 o2 : err_equals_check T E eqE o1 (err_equals_stamp T E o2) = false <-> rel_err_equals o1 o2.
Proof.
  unfold err_equals_check, err_equals_stamp, rel_err_equals. rewrite negb_false_iff.
  destruct o1, o2; cbn.
  - split; [intros _; exact I|reflexivity].
  - split; [discriminate|contradiction].
  - split; [discriminate|contradiction].
  - apply eqE_spec.
Qed.

Theorem result_decides o1 o2 : result_check T E o1 (result_stamp T E o2) = false <-> rel_result o1 o2.
Proof.
  unfold result_check, result_stamp, rel_result. rewrite negb_false_iff.
  destruct o1, o2; cbn.
  - split; [intros _; exact I|reflexivity].
  - split; [discriminate|contradiction].
  - split; [discriminate|contradiction].
  - split; [intros _; exact I|reflexivity].
Qed.

Theorem always_decides o1 o2 : always_check T E o1 (always_stamp T E o2) = false <-> True.
Proof. split; [intros _; exact I|reflexivity]. Qed.

Theorem reflexive c o : inconsistent T E eqT eqE c o o = false.
Proof.
  (* the checker ids 0..3 as binary numbers; every other id is AlwaysConsistent *)
  unfold inconsistent. destruct c as [|[[q|q|]|[q|q|]|]]; try reflexivity.
  - apply equals_decides. reflexivity.
  - apply result_decides. destruct o; exact I.
  - apply err_equals_decides. destruct o; [exact I|reflexivity].
  - apply ok_equals_decides. destruct o; [reflexivity|exact I].
Qed.
End P.
