(* What every pass over the interpreters stands on: one shape for a claim about an outcome (holds); chains of primitive steps,
   so that a pass proves its "nothing of interest happened" relation for lstep, lfail and sstep only; node creation and
   Store::add_dependency as setters of the graph; Read, Write and WrittenTo as one operation (rwop) in one form (rw_form);
   which tasks the scheduling functions queue; the worlds startw, endw and popped of an execution. *)
From Coq Require Import List NArith ZArith Bool.
From PieV Require Import Model.Dag Model.Build Proofs.DagLib Proofs.DagWF.
Import ListNotations.
Open Scope N_scope.

(* Running out of fuel says nothing.  The claims of the passes (okR, okN, okV, okJ, okB, outKA ...) each unfold to holds of
   some D and Ab. *)
Definition holds {A} (D : A -> world -> Prop) (Ab : akind -> world -> Prop) (m : outcome A) : Prop :=
  match m with Done a w => D a w | Abort k w => Ab k w | OutOfFuel => True end.

Lemma holds_bind {A B} D Ab D' (m : outcome A) (f : A -> world -> outcome B) :
  holds D Ab m -> (forall a w, m = Done a w -> D a w -> holds D' Ab (f a w)) -> holds D' Ab (bind m f).
Proof. destruct m as [a w|k w|]; cbn; intros H F; [apply F; [reflexivity|exact H]|exact H|exact I]. Qed.
Lemma holds_mono {A} D Ab (D' : A -> world -> Prop) (Ab' : akind -> world -> Prop) (m : outcome A) :
  holds D Ab m -> (forall a w, m = Done a w -> D a w -> D' a w) -> (forall k w, m = Abort k w -> Ab k w -> Ab' k w) -> holds D' Ab' m.
Proof. destruct m as [a w|k w|]; cbn; intros H F G; [apply F; [reflexivity|exact H]|apply G; [reflexivity|exact H]|exact I]. Qed.
Lemma holds_and {A} D Ab (D' : A -> world -> Prop) (Ab' : akind -> world -> Prop) (m : outcome A) :
  holds D Ab m -> holds D' Ab' m -> holds (fun a w => D a w /\ D' a w) (fun k w => Ab k w /\ Ab' k w) m.
Proof. destruct m; cbn; intros H H'; [split; assumption|split; assumption|exact I]. Qed.
Lemma holds_done {A} D Ab (m : outcome A) a w : holds D Ab m -> m = Done a w -> D a w.
Proof. intros H ->. exact H. Qed.
Arguments holds_done {A D Ab m a w} _ _.
Lemma bind_assoc {A B C} (m : outcome A) (f : A -> world -> outcome B) (g : B -> world -> outcome C) :
  bind (bind m f) g = bind m (fun a w => bind (f a w) g).
Proof. destruct m; reflexivity. Qed.
Lemma bind_ext {A B} (m : outcome A) (f g : A -> world -> outcome B) : (forall a w, m = Done a w -> f a w = g a w) -> bind m f = bind m g.
Proof. destruct m as [a w|k w|]; cbn; intros H; [apply H; reflexivity|reflexivity|reflexivity]. Qed.
Lemma bind_done {A B} (m : outcome A) (f : A -> world -> outcome B) b w2 :
  bind m f = Done b w2 -> exists a w1, m = Done a w1 /\ f a w1 = Done b w2.
Proof. destruct m as [a w1|k w1|]; cbn; intros H; [exists a, w1; split; [reflexivity|exact H]|discriminate|discriminate]. Qed.

Section Chain.
Variable step : world -> world -> Prop.

Inductive chain : world -> world -> Prop :=
| chain_refl w : chain w w
| chain_step w1 w2 w3 : step w1 w2 -> chain w2 w3 -> chain w1 w3.

Lemma chain_one w w' : step w w' -> chain w w'.
Proof. intros H. eapply chain_step; [exact H|apply chain_refl]. Qed.
Lemma chain_app w1 w2 w3 : chain w1 w2 -> chain w2 w3 -> chain w1 w3.
Proof. induction 1 as [|a b c S _ IH]; intros H; [exact H|eapply chain_step; [exact S|apply IH; exact H]]. Qed.
Lemma chain_snoc w1 w2 w3 : step w2 w3 -> chain w1 w2 -> chain w1 w3.
Proof. intros S C. eapply chain_app; [exact C|apply chain_one; exact S]. Qed.
Lemma chain_fold {X} (f : world -> X -> world) l : (forall w x, chain w (f w x)) -> forall w, chain w (fold_left f l w).
Proof. intros Hf. induction l as [|x tl IH]; intros w; cbn [fold_left]; [apply chain_refl|eapply chain_app; [apply Hf|apply IH]]. Qed.

Lemma chain_rel (I : world -> Prop) (R : world -> world -> Prop) :
  (forall w, I w -> R w w) -> (forall a b c, R a b -> R b c -> R a c) ->
  (forall w w', I w -> step w w' -> R w w' /\ I w') ->
  forall w w', chain w w' -> I w -> R w w' /\ I w'.
Proof.
  intros Rr Rt Hs w w' C. induction C as [w|a b c S _ IH]; intros Ha; [split; [apply Rr; exact Ha|exact Ha]|].
  destruct (Hs a b Ha S) as [R1 Hb]. destruct (IH Hb) as [R2 Hc]. split; [eapply Rt; eassumption|exact Hc].
Qed.
Lemma chain_in (R : world -> world -> Prop) :
  (forall w, R w w) -> (forall a b c, R a b -> R b c -> R a c) -> (forall w w', step w w' -> R w w') ->
  forall w w', chain w w' -> R w w'.
Proof. intros Rr Rt Hs w w' C. apply (chain_rel (fun _ => True) R (fun w _ => Rr w) Rt); [intros a b _ S; split; [apply Hs; exact S|exact I]|exact C|exact I]. Qed.
End Chain.

(* get_or_create_task_node w t and get_or_create_resource_node w r are one function, at tn t and at rn r (by conversion: a
   lemma about goc applies to both). *)
Definition goc (w : world) (n : node) : world := if live (gr w) n then w else set_gr w (add_node_at (gr w) n).
Lemma goc_spec w n : exists g, goc w n = set_gr w g /\
  (forall m, kids_of g m = kids_of (gr w) m) /\ (forall u v, get_edata g u v = get_edata (gr w) u v) /\
  (forall m, live g m = live (gr w) m || N.eqb m n) /\ live g n = true.
Proof.
  unfold goc. destruct (live (gr w) n) eqn:L.
  - exists (gr w). split; [destruct w; reflexivity|]. split; [reflexivity|]. split; [reflexivity|]. split; [|exact L].
    intros m. destruct (N.eqb_spec m n) as [->|_]; [rewrite L; reflexivity|symmetry; apply orb_false_r].
  - exists (add_node_at (gr w) n). split; [reflexivity|]. split; [apply kids_of_add_node|]. split; [reflexivity|].
    split; [apply live_add_node|rewrite live_add_node, N.eqb_refl; apply orb_true_r].
Qed.
Lemma goc_gr w n : exists g, goc w n = set_gr w g.
Proof. destruct (goc_spec w n) as [g [E _]]. exists g. exact E. Qed.
Lemma goc_res_gr w r : exists g, get_or_create_resource_node w r = set_gr w g. Proof. exact (goc_gr w (rn r)). Qed.
Lemma goc_task_gr w t : exists g, get_or_create_task_node w t = set_gr w g. Proof. exact (goc_gr w (tn t)). Qed.

Lemma add_dependency_gr w s d dp : exists g, snd (add_dependency w s d dp) = set_gr w g.
Proof. unfold add_dependency. destruct (add_edge (gr w) s d dp) as [[b|[|]|] g']; exists g'; reflexivity. Qed.
Lemma cur_goc_res w r : cur (get_or_create_resource_node w r) = cur w.
Proof. destruct (goc_res_gr w r) as [g ->]. reflexivity. Qed.
Lemma live_goc w n : live (gr (goc w n)) n = true.
Proof. destruct (goc_spec w n) as [g [-> [_ [_ [_ L]]]]]. exact L. Qed.
Lemma live_goc_task w x : live (gr (get_or_create_task_node w x)) (tn x) = true. Proof. exact (live_goc w (tn x)). Qed.
Lemma live_goc_res w r : live (gr (get_or_create_resource_node w r)) (rn r) = true. Proof. exact (live_goc w (rn r)). Qed.

Definition rw_event (e : event) : bool :=
  match e with EReadStart _ _ | EReadEnd _ _ _ | EWriteStart _ _ | EWriteEnd _ _ _ => true | _ => false end.
Definition rw_dep (r : res) (dp : dep) : Prop := exists c st, dp = DRead r c st \/ dp = DWrite r c st.

Inductive lstep : world -> world -> Prop :=
| ls_emit w e : rw_event e = true -> lstep w (emit w e)
| ls_goc w r : lstep w (get_or_create_resource_node w r)
| ls_content w r v : lstep w (set_content w r v)
| ls_dep w t r dp ar w' : cur w = Some t -> rw_dep r dp -> (is_write (Some dp) = true -> get_task_writing_to_resource w r = None) ->
    add_dependency w (tn t) (rn r) dp = (ar, w') -> ar <> AddBug -> lstep w w'.

(* the one way a read or write fails in the model only: the dependency cannot be added (a node is missing) *)
Inductive lfail : world -> world -> Prop :=
| lf_dep w t r dp w' : cur w = Some t -> live (gr w) (rn r) = true -> add_dependency w (tn t) (rn r) dp = (AddBug, w') -> lfail w w'.

(* The aborts of an operation are the two diagnoses of Context::read / write, or the model's "node missing": one failed step
   after the others (which does not happen where the node of the executing task exists: NoBug4All.rw_chain_NB, and would change
   nothing: StoreInv.lfail_same). *)
Definition rw_chain {A} (w : world) (m : outcome A) : Prop :=
  match m with
  | Done _ w' => chain lstep w w'
  | Abort k w' => (k = ABug 4 /\ exists w0, chain lstep w w0 /\ lfail w0 w') \/ ((k = AHidden \/ k = AOverlap) /\ chain lstep w w')
  | OutOfFuel => True
  end.

Lemma lstep_fields w w' : lstep w w' ->
  queue w' = queue w /\ cur w' = cur w /\ consistent w' = consistent w /\ outs w' = outs w /\ env w' = env w /\ errs w' = errs w /\
  (trace w' = trace w \/ exists e, rw_event e = true /\ trace w' = e :: trace w).
Proof.
  destruct 1 as [w e He|w r|w r v|w t r dp ar w' _ _ _ E _].
  - repeat split. right. exists e. split; [exact He|reflexivity].
  - destruct (goc_res_gr w r) as [g ->]. repeat split. left. reflexivity.
  - destruct v; repeat split; left; reflexivity.
  - destruct (add_dependency_gr w (tn t) (rn r) dp) as [g G]. rewrite E in G. cbn [snd] in G. subst w'. repeat split. left. reflexivity.
Qed.
Lemma lfail_gr w w' : lfail w w' -> exists g, w' = set_gr w g.
Proof. destruct 1 as [w t r dp w' _ _ E]. destruct (add_dependency_gr w (tn t) (rn r) dp) as [g G]. rewrite E in G. exists g. exact G. Qed.

Lemma rw_chain_queue {A} w (m : outcome A) : rw_chain w m -> match m with Done _ w' | Abort _ w' => queue w' = queue w | OutOfFuel => True end.
Proof.
  assert (X : forall w', chain lstep w w' -> queue w' = queue w).
  { apply (chain_in lstep (fun a b => queue b = queue a)); [reflexivity|congruence|intros a b S; apply (lstep_fields a b S)]. }
  destruct m as [x w'|k w'|]; cbn; [exact (X w')| |trivial]. intros [[_ [w0 [C F]]]|[_ C]]; [|exact (X w' C)].
  destruct (lfail_gr w0 w' F) as [g ->]. exact (X w0 C).
Qed.

Inductive rwop : Type -> Type :=
| ORead (r : res) (c : rcid) : rwop (Z + Z)
| OWrite (r : res) (c : rcid) (v : content) : rwop (unit + Z)
| OWrittenTo (r : res) (c : rcid) (v : content) : rwop (unit + Z).

Definition rw_prog {X} (o : rwop X) : (X -> prog) -> prog :=
  match o with ORead r c => Read r c | OWrite r c v => Write r c v | OWrittenTo r c v => WrittenTo r c v end.
Definition rw_res {X} (o : rwop X) : res := match o with ORead r _ | OWrite r _ _ | OWrittenTo r _ _ => r end.
Definition rw_checker {X} (o : rwop X) : rcid := match o with ORead _ c | OWrite _ c _ | OWrittenTo _ c _ => c end.
Definition rw_writes {X} (o : rwop X) : bool := match o with ORead _ _ => false | _ => true end.

Lemma prog_rw_ind (Q : prog -> Prop) :
  (forall o, Q (Ret o)) -> Q Panic -> (forall t c k, (forall z, Q (k z)) -> Q (Req t c k)) ->
  (forall X (o : rwop X) k, (forall x, Q (k x)) -> Q (rw_prog o k)) -> forall p, Q p.
Proof.
  intros HR HP HQ HO. induction p as [o| |t c k IH|r c k IH|r c v k IH|r c v k IH]; [apply HR|exact HP|apply HQ; exact IH| | |].
  - apply (HO _ (ORead r c)). exact IH.
  - apply (HO _ (OWrite r c v)). exact IH.
  - apply (HO _ (OWrittenTo r c v)). exact IH.
Qed.

Section Rw.
Variable RC : rcid -> rchecker.
Variable OC : ocid -> ochecker.

Definition run_rw {X} (o : rwop X) (w : world) : outcome X :=
  match o with
  | ORead r c => sess_read RC w r c
  | OWrite r c v => sess_write RC w r c v
  | OWrittenTo r c v => sess_written_to RC w r c v
  end.
Lemma exec_prog_rw {X} req (o : rwop X) k w :
  exec_prog RC OC req (rw_prog o k) w = bind (run_rw o w) (fun x w' => exec_prog RC OC req (k x) w').
Proof. destruct o; reflexivity. Qed.

(* Read, Write and WrittenTo in one form.  What differs: written_to stores the content before anything else, write after the
   checks, read not at all; read asks hidden_read_check, the writes validate_write; read stamps the content it was handed, the
   writes the content that is there after them *)
Definition rw_before {X} (o : rwop X) (w : world) : world := match o with OWrittenTo r _ v => set_content w r v | _ => w end.
Definition rw_after {X} (o : rwop X) (w : world) : world := match o with OWrite r _ v => set_content w r v | _ => w end.
Definition rw_start {X} (o : rwop X) : event := match o with ORead r c => EReadStart r c | OWrite r c _ | OWrittenTo r c _ => EWriteStart r c end.
Definition rw_end {X} (o : rwop X) (st : Z) : event := match o with ORead r c => EReadEnd r c st | OWrite r c _ | OWrittenTo r c _ => EWriteEnd r c st end.
Definition rw_dp {X} (o : rwop X) (st : Z) : dep := match o with ORead r c => DRead r c st | OWrite r c _ | OWrittenTo r c _ => DWrite r c st end.
Definition rw_blocked {X} (o : rwop X) (w : world) (t : task) : option akind :=
  match o with ORead r _ => if hidden_read_check w t r then Some AHidden else None | OWrite r _ _ | OWrittenTo r _ _ => validate_write w t r end.
(* the world in which the operation is validated *)
Definition rw_at {X} (o : rwop X) (w : world) : world := get_or_create_resource_node (emit (rw_before o w) (rw_start o)) (rw_res o).
Definition rw_stamped {X} (o : rwop X) (w w3 : world) : content :=
  match o with ORead r _ => get_content w r | OWrite r _ _ | OWrittenTo r _ _ => get_content w3 r end.
Definition rw_ok {X} (o : rwop X) (w : world) : X :=
  match o in rwop X return X with ORead r c => inl (rc_view (RC c) (get_content w r)) | OWrite _ _ _ => inl tt | OWrittenTo _ _ _ => inl tt end.
Definition rw_err {X} (o : rwop X) (e : Z) : X := match o in rwop X return X with ORead _ _ => inr e | OWrite _ _ _ => inr e | OWrittenTo _ _ _ => inr e end.
Definition rw_form {X} (o : rwop X) (w : world) : outcome X :=
  match cur (rw_before o w) with
  | None => Done (rw_ok o w) (rw_after o (rw_before o w))
  | Some t =>
    let w2 := rw_at o w in
    match rw_blocked o w2 t with
    | Some k => Abort k w2
    | None =>
      let w3 := rw_after o w2 in
      match rc_stamp (RC (rw_checker o)) (env w3) (rw_res o) (rw_stamped o w w3) with
      | inr e => Done (rw_err o e) w3
      | inl st =>
        match add_dependency (emit w3 (rw_end o st)) (tn t) (rn (rw_res o)) (rw_dp o st) with
        | (AddBug, w4) => Abort (ABug 4) w4
        | (_, w4) => Done (rw_ok o w) w4
        end
      end
    end
  end.
Lemma run_rw_form {X} (o : rwop X) w : run_rw o w = rw_form o w.
Proof.
  destruct o as [r c|r c v|r c v]; unfold run_rw, rw_form, rw_at, sess_read, sess_write, sess_written_to;
    cbn [rw_before rw_after rw_start rw_end rw_dp rw_blocked rw_stamped rw_ok rw_err rw_res rw_checker];
    [destruct (cur w) as [t|]; [|reflexivity]; destruct (hidden_read_check _ t r); reflexivity|reflexivity|reflexivity].
Qed.
Lemma cur_rw_before {X} (o : rwop X) w : cur (rw_before o w) = cur w.
Proof. destruct o as [r c|r c v|r c v]; [reflexivity|reflexivity|destruct v; reflexivity]. Qed.

Lemma validate_write_no_writer w t r : validate_write w t r = None -> get_task_writing_to_resource w r = None.
Proof. unfold validate_write. destruct (get_task_writing_to_resource w r); [discriminate|reflexivity]. Qed.
Lemma validate_write_kind w t r k : validate_write w t r = Some k -> k = AHidden \/ k = AOverlap.
Proof. unfold validate_write. destruct (get_task_writing_to_resource w r); [|destruct (existsb _ _)]; intros H; inversion H; auto. Qed.

Lemma run_rw_chain {X} (o : rwop X) w : rw_chain w (run_rw o w).
Proof.
  rewrite run_rw_form. unfold rw_form. cbv zeta.
  assert (C0 : chain lstep w (rw_before o w)) by (destruct o; [apply chain_refl|apply chain_refl|apply chain_one, ls_content]).
  assert (CP : forall a, chain lstep w a -> chain lstep w (rw_after o a)) by (intros a Ca; destruct o; [exact Ca|eapply chain_snoc; [apply ls_content|exact Ca]|exact Ca]).
  destruct (cur (rw_before o w)) as [t|] eqn:Hc; [|apply CP; exact C0].
  set (w2 := rw_at o w).
  assert (C2 : chain lstep w w2) by (unfold w2, rw_at; eapply chain_snoc; [apply ls_goc|eapply chain_snoc; [apply ls_emit; destruct o; reflexivity|exact C0]]).
  destruct (rw_blocked o w2 t) as [k|] eqn:B.
  { right. split; [|exact C2]. destruct o; cbn [rw_blocked] in B; [destruct (hidden_read_check _ _ _); inversion B; left; reflexivity|eapply validate_write_kind; exact B..]. }
  destruct (rc_stamp _ _ _ _) as [st|e]; [|apply CP; exact C2].
  set (we := emit (rw_after o w2) (rw_end o st)).
  assert (Ce : chain lstep w we) by (eapply chain_snoc; [apply ls_emit; destruct o; reflexivity|apply CP; exact C2]).
  assert (Hc3 : cur we = Some t) by (rewrite <- Hc; unfold we, w2, rw_at; destruct o as [r c|r c [z|]|r c v]; cbn; rewrite cur_goc_res; reflexivity).
  assert (Lr : live (gr we) (rn (rw_res o)) = true) by (unfold we, w2, rw_at; destruct o as [r c|r c [z|]|r c v]; cbn; apply live_goc_res).
  assert (NW : is_write (Some (rw_dp o st)) = true -> get_task_writing_to_resource we (rw_res o) = None).
  { destruct o as [r c|r c v|r c v]; cbn [rw_dp rw_blocked rw_res] in *; [discriminate| |]; intros _;
      [destruct v|]; apply (validate_write_no_writer w2 t _ B). }
  assert (RD : rw_dep (rw_res o) (rw_dp o st)) by (exists (rw_checker o), st; destruct o; [left|right|right]; reflexivity).
  destruct (add_dependency we (tn t) (rn (rw_res o)) (rw_dp o st)) as [[| |] w4] eqn:E; cbn [rw_chain];
    [eapply chain_snoc; [exact (ls_dep we t _ _ _ w4 Hc3 RD NW E ltac:(discriminate))|exact Ce]..|].
  left. split; [reflexivity|]. exists we. split; [exact Ce|exact (lf_dep we t _ _ w4 Hc3 Lr E)].
Qed.

Lemma run_rw_events {X} (o : rwop X) w :
  match run_rw o w with
  | Done _ w' | Abort _ w' =>
    (exists s, trace w' = s ++ trace w /\ Forall (fun e => rw_event e = true) s) /\ queue w' = queue w /\ outs w' = outs w /\ errs w' = errs w
  | OutOfFuel => True
  end.
Proof.
  set (R := fun a b => (exists s, trace b = s ++ trace a /\ Forall (fun e => rw_event e = true) s) /\ queue b = queue a /\ outs b = outs a /\ errs b = errs a).
  assert (C : forall w', chain lstep w w' -> R w w').
  { apply (chain_in lstep R).
    - intros a. split; [exists []; split; [reflexivity|constructor]|repeat split].
    - intros a b c [[s [T F]] [Q [O E]]] [[s' [T' F']] [Q' [O' E']]].
      split; [exists (s' ++ s); split; [rewrite T', T; apply app_assoc|apply Forall_app; split; assumption]|repeat split; congruence].
    - intros a b S. destruct (lstep_fields a b S) as [Q [_ [_ [O [_ [E T]]]]]]. split; [|repeat split; assumption].
      destruct T as [T|[e [He T]]]; [exists []|exists [e]]; (split; [exact T|repeat constructor; exact He]). }
  pose proof (run_rw_chain o w) as H. destruct (run_rw o w) as [x w'|k w'|]; cbn in H; [exact (C w' H)| |exact I].
  destruct H as [[_ [w0 [C0 F]]]|[_ C0]]; [|exact (C w' C0)]. destruct (lfail_gr w0 w' F) as [g ->]. exact (C w0 C0).
Qed.
End Rw.

Definition sched_event (e : event) : bool :=
  match e with
  | ESchedByTaskStart _ | ESchedByTaskEnd _ | ECheckReqTaskStart _ _ _ | ECheckReqTaskEnd _ _ _ _
  | ESchedByResStart _ | ESchedByResEnd _ | ECheckReadResStart _ _ _ | ECheckReadResEnd _ _ _ _ | ESchedTask _ => true
  | _ => false
  end.

Inductive sstep : world -> world -> Prop :=
| ss_emit w e : sched_event e = true -> sstep w (emit w e)
| ss_err w e : sstep w (push_err w e)
| ss_add w t : sstep w (queue_add w t)
| ss_goc w r : sstep w (get_or_create_resource_node w r).
Lemma sstep_fields w w' : sstep w w' ->
  cur w' = cur w /\ consistent w' = consistent w /\ outs w' = outs w /\ rstate w' = rstate w /\ env w' = env w /\
  (forall x, In x (queue w) -> In x (queue w')) /\
  (trace w' = trace w \/ exists e, sched_event e = true /\ trace w' = e :: trace w).
Proof.
  destruct 1 as [w e He|w e|w t|w r].
  - repeat split; trivial. right. exists e. split; [exact He|reflexivity].
  - repeat split; trivial. left. reflexivity.
  - unfold queue_add. destruct (memN t (queue w)); repeat split; trivial; try (left; reflexivity).
    intros x X. cbn. apply in_or_app. left. exact X.
  - destruct (goc_res_gr w r) as [g ->]. repeat split; trivial. left. reflexivity.
Qed.

Section Sched.
Variable RC : rcid -> rchecker.
Variable OC : ocid -> ochecker.

Lemma try_schedule_chain w t r c st : chain sstep w (try_schedule RC w t r c st).
Proof.
  unfold try_schedule. cbv zeta. destruct (rc_check _ _ _ _ _) as [| |e].
  - eapply chain_snoc; [apply ss_emit; reflexivity|]. apply chain_one, ss_emit. reflexivity.
  - eapply chain_snoc; [apply ss_add|]. eapply chain_snoc; [apply ss_emit; reflexivity|].
    eapply chain_snoc; [apply ss_emit; reflexivity|]. apply chain_one, ss_emit. reflexivity.
  - eapply chain_snoc; [apply ss_add|]. eapply chain_snoc; [apply ss_emit; reflexivity|]. eapply chain_snoc; [apply ss_err|].
    eapply chain_snoc; [apply ss_emit; reflexivity|]. apply chain_one, ss_emit. reflexivity.
Qed.
Lemma try_schedule_edge_chain b w p : chain sstep w (try_schedule_edge RC b w p).
Proof.
  unfold try_schedule_edge. destruct (snd p) as [[|t c st|r c st|r c st]|]; try apply chain_refl; [apply try_schedule_chain|].
  destruct b; [apply chain_refl|apply try_schedule_chain].
Qed.
Lemma schedule_tasks_affected_by_chain w r : chain sstep w (schedule_tasks_affected_by RC w r).
Proof.
  unfold schedule_tasks_affected_by. cbv zeta. eapply chain_snoc; [apply ss_emit; reflexivity|].
  eapply chain_app; [|apply chain_fold; intros; apply try_schedule_edge_chain].
  eapply chain_snoc; [apply ss_goc|]. apply chain_one, ss_emit. reflexivity.
Qed.
Lemma schedule_by_written_chain w r : chain sstep w (schedule_by_written RC w r).
Proof.
  unfold schedule_by_written. cbv zeta. eapply chain_snoc; [apply ss_emit; reflexivity|].
  eapply chain_app; [|apply chain_fold; intros; apply try_schedule_edge_chain]. apply chain_one, ss_emit. reflexivity.
Qed.
Lemma schedule_requirer_chain o w p : chain sstep w (schedule_requirer OC o w p).
Proof.
  unfold schedule_requirer. destruct (snd p) as [[|t c st|r c st|r c st]|]; try apply chain_refl. cbv zeta.
  destruct (oc_check (OC c) o st).
  - eapply chain_snoc; [apply ss_emit; reflexivity|]. apply chain_one, ss_emit. reflexivity.
  - eapply chain_snoc; [apply ss_add|]. eapply chain_snoc; [apply ss_emit; reflexivity|].
    eapply chain_snoc; [apply ss_emit; reflexivity|]. apply chain_one, ss_emit. reflexivity.
Qed.
Lemma schedule_after_chain w t o : exists wm, chain sstep w wm /\ schedule_after RC OC w t o = mark_consistent wm t.
Proof.
  unfold schedule_after. cbv zeta. eexists. split; [|reflexivity].
  eapply chain_snoc; [apply ss_emit; reflexivity|]. eapply chain_app; [|apply chain_fold; intros; apply schedule_requirer_chain].
  eapply chain_snoc; [apply ss_emit; reflexivity|]. apply chain_fold; intros; apply schedule_by_written_chain.
Qed.

(* Which tasks the scheduling functions queue: those of the edges they look at whose check fails in the world w0 the
   scheduling started in, since a scheduling step changes nothing that a checker looks at (sched_same). *)
Lemma sched_same w w' : chain sstep w w' ->
  rstate w' = rstate w /\ env w' = env w /\ (forall v, incoming w' v = incoming w v) /\ forall x, In x (queue w) -> In x (queue w').
Proof.
  apply (chain_in sstep (fun a b => rstate b = rstate a /\ env b = env a /\ (forall v, incoming b v = incoming a v) /\ forall x, In x (queue a) -> In x (queue b))).
  - intros a. split; [reflexivity|split; [reflexivity|split; [reflexivity|trivial]]].
  - intros a b c [A1 [A2 [A3 A4]]] [B1 [B2 [B3 B4]]]. split; [congruence|split; [congruence|split; [intros v; rewrite B3; apply A3|intros x X; apply B4, A4, X]]].
  - intros a b S. destruct (sstep_fields a b S) as [_ [_ [_ [R [E [Q _]]]]]]. split; [exact R|split; [exact E|split; [|exact Q]]]. intros v.
    destruct S as [a e He|a e|a t|a r]; [reflexivity|reflexivity|unfold incoming, queue_add; destruct (memN _ _); reflexivity|].
    unfold get_or_create_resource_node. destruct (live (gr a) (rn r)) eqn:Lr; [reflexivity|].
    unfold incoming, get_incoming_edges. cbn [gr set_gr]. rewrite pars_of_add_node. reflexivity.
Qed.
Lemma In_queue_add w x y : In y (queue (queue_add w x)) <-> In y (queue w) \/ y = x.
Proof.
  unfold queue_add. destruct (memN x (queue w)) eqn:M; [split; [left; assumption|intros [Y| ->]; [exact Y|apply memN_In; exact M]]|].
  cbn. rewrite in_app_iff. cbn. split; (intros [Y|Y]; [left; exact Y|right]); [destruct Y as [<-|[]]; reflexivity|left; symmetry; exact Y].
Qed.
Lemma fold_queue {A} (f : world -> A -> world) (N : A -> task -> Prop) w0 :
  (forall w a, chain sstep w (f w a)) -> (forall w a y, chain sstep w0 w -> (In y (queue (f w a)) <-> In y (queue w) \/ N a y)) ->
  forall l w, chain sstep w0 w -> forall y, In y (queue (fold_left f l w)) <-> In y (queue w) \/ exists a, In a l /\ N a y.
Proof.
  intros Hc Hf. induction l as [|a tl IH]; intros w Hw y; cbn [fold_left].
  - split; [left; assumption|intros [Y|[a [[] _]]]; exact Y].
  - rewrite (IH (f w a) (chain_app sstep _ _ _ Hw (Hc w a)) y), (Hf w a y Hw). split.
    + intros [[Y|Y]|[b [Ib Y]]]; [left; exact Y|right; exists a; split; [left; reflexivity|exact Y]|right; exists b; split; [right; exact Ib|exact Y]].
    + intros [Y|[b [[<-|Ib] Y]]]; [left; left; exact Y|left; right; exact Y|right; exists b; split; assumption].
Qed.

Definition rejects (w : world) (r : res) (c : rcid) (st : Z) : Prop := rc_check (RC c) (env w) r (get_content w r) st <> Consistent.
Lemma try_schedule_queue w0 w x r c st y : chain sstep w0 w ->
  In y (queue (try_schedule RC w x r c st)) <-> In y (queue w) \/ (y = x /\ rejects w0 r c st).
Proof.
  intros C. destruct (sched_same w0 w C) as [K1 [K2 _]]. unfold rejects, try_schedule, get_content. cbv zeta. cbn [env emit rstate].
  rewrite K1, K2. destruct (rc_check (RC c) (env w0) r (alookup (rstate w0) r) st); [split; [left; assumption|intros [Y|[_ Y]]; [exact Y|contradiction Y; reflexivity]]| |];
    (rewrite In_queue_add; split; (intros [Y|Y]; [left; exact Y|right]); [split; [exact Y|discriminate]|apply Y]).
Qed.
Definition hit (ro : bool) (w : world) (p : node * option dep) (y : task) : Prop :=
  y = un (fst p) /\ match snd p with
                    | Some (DRead r c st) => rejects w r c st
                    | Some (DWrite r c st) => ro = false /\ rejects w r c st
                    | _ => False
                    end.
Lemma try_schedule_edge_queue ro w0 w p y : chain sstep w0 w -> In y (queue (try_schedule_edge RC ro w p)) <-> In y (queue w) \/ hit ro w0 p y.
Proof.
  intros Hq. unfold try_schedule_edge, hit. destruct (snd p) as [[|t c st|r c st|r c st]|]; try (split; [left; assumption|intros [Y|[_ []]]; exact Y]).
  - apply (try_schedule_queue w0 w _ r c st y Hq).
  - destruct ro; [split; [left; assumption|intros [Y|[_ [Y _]]]; [exact Y|discriminate]]|].
    rewrite (try_schedule_queue w0 w _ r c st y Hq). split; (intros [Y|[Y1 Y2]]; [left; exact Y|right; split; [exact Y1|]]); [split; [reflexivity|exact Y2]|apply Y2].
Qed.
Definition hitR (ro : bool) (w0 : world) (r : res) (y : task) : Prop := exists p, In p (incoming w0 (rn r)) /\ hit ro w0 p y.
Lemma edges_queue ro w0 w r e y : chain sstep w0 w ->
  In y (queue (emit (fold_left (try_schedule_edge RC ro) (incoming w (rn r)) w) e)) <-> In y (queue w) \/ hitR ro w0 r y.
Proof.
  intros Hq. rewrite (proj1 (proj2 (proj2 (sched_same w0 w Hq))) (rn r)).
  apply (fold_queue (try_schedule_edge RC ro) (hit ro w0) w0 (try_schedule_edge_chain ro) (fun w' p y' => try_schedule_edge_queue ro w0 w' p y') (incoming w0 (rn r)) w Hq).
Qed.
Lemma schedule_by_written_queue w0 w r y : chain sstep w0 w -> In y (queue (schedule_by_written RC w r)) <-> In y (queue w) \/ hitR true w0 r y.
Proof. intros Hq. unfold schedule_by_written. cbv zeta. apply (edges_queue true w0 (emit w (ESchedByResStart r))). eapply chain_snoc; [apply ss_emit; reflexivity|exact Hq]. Qed.
Lemma schedule_tasks_affected_by_queue w0 w r y : chain sstep w0 w -> In y (queue (schedule_tasks_affected_by RC w r)) <-> In y (queue w) \/ hitR false w0 r y.
Proof.
  intros Hq. unfold schedule_tasks_affected_by. cbv zeta. rewrite (edges_queue false w0 _ r _ y).
  - unfold get_or_create_resource_node. destruct (live _ _); reflexivity.
  - eapply chain_snoc; [apply ss_goc|]. eapply chain_snoc; [apply ss_emit; reflexivity|exact Hq].
Qed.
Definition hitQ (o : Z) (p : node * option dep) (y : task) : Prop :=
  y = un (fst p) /\ match snd p with Some (DRequire _ c st) => oc_check (OC c) o st = false | _ => False end.
Lemma schedule_requirer_queue o w p y : In y (queue (schedule_requirer OC o w p)) <-> In y (queue w) \/ hitQ o p y.
Proof.
  unfold schedule_requirer, hitQ. destruct (snd p) as [[|t c st|r c st|r c st]|]; try (split; [left; assumption|intros [Y|[_ []]]; exact Y]). cbv zeta.
  destruct (oc_check (OC c) o st); [split; [left; assumption|intros [Y|[_ Y]]; [exact Y|discriminate]]|].
  rewrite In_queue_add. split; (intros [Y|Y]; [left; exact Y|right]); [split; [exact Y|reflexivity]|apply Y].
Qed.

(* the scheduling at the start of a bottom-up build, and after an execution of t with output o *)
Lemma changed_queue w ch y :
  In y (queue (fold_left (schedule_tasks_affected_by RC) ch w)) <-> In y (queue w) \/ exists r, In r ch /\ hitR false w r y.
Proof.
  exact (fold_queue (schedule_tasks_affected_by RC) (hitR false w) w schedule_tasks_affected_by_chain
           (fun w' r y' => schedule_tasks_affected_by_queue w w' r y') ch w (chain_refl _ w) y).
Qed.
Lemma after_queue w t o y : In y (queue (schedule_after RC OC w t o)) <->
  In y (queue w) \/ (exists r, In r (resources_written_by w t) /\ hitR true w r y) \/ exists p, In p (incoming w (tn t)) /\ hitQ o p y.
Proof.
  unfold schedule_after. cbv zeta. set (w1 := fold_left (schedule_by_written RC) (resources_written_by w t) w). set (w2 := emit w1 (ESchedByTaskStart t)).
  change (In y (queue (fold_left (schedule_requirer OC o) (incoming w2 (tn t)) w2)) <->
          In y (queue w) \/ (exists r, In r (resources_written_by w t) /\ hitR true w r y) \/ exists p, In p (incoming w (tn t)) /\ hitQ o p y).
  assert (C2 : chain sstep w w2) by (eapply chain_snoc; [apply ss_emit; reflexivity|apply chain_fold; intros; apply schedule_by_written_chain]).
  rewrite (fold_queue (schedule_requirer OC o) (hitQ o) w (schedule_requirer_chain o) (fun w' p y' _ => schedule_requirer_queue o w' p y') (incoming w2 (tn t)) w2 C2 y).
  rewrite (proj1 (proj2 (proj2 (sched_same w w2 C2))) (tn t)). change (queue w2) with (queue w1). unfold w1.
  rewrite (fold_queue (schedule_by_written RC) (hitR true w) w schedule_by_written_chain (fun w' r y' => schedule_by_written_queue w w' r y') _ w (chain_refl _ w) y).
  tauto.
Qed.
End Sched.

Definition startw (w : world) (t : task) : world := emit (set_cur (reset_task w t) (Some t)) (EExecStart t).
Definition endw (w : world) (t : task) (o : Z) (c : option task) : world := set_task_output (set_cur (emit w (EExecEnd t o)) c) t o.
Definition popped (w : world) (t : task) : world := set_queue w (removeN t (sort_queue w)).
Lemma execute_with_eq RC OC P req w t :
  execute_with RC OC P req w t = bind (exec_prog RC OC req (P t) (startw w t)) (fun o w3 => Done o (endw w3 t o (cur w))).
Proof. reflexivity. Qed.
