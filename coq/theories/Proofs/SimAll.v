(* C01 (and C02's last clause, C19's soundness clause) over ALL histories.  The simulation of Sim.v relates the incremental store
   to a fresh one using only the store invariants (J = StoreOK + NoRes + consistent-tasks-have-outputs) and the exact-record
   invariant K of the incremental side.  NoBugAll.v and CertAll.v establish both after EVERY history -- top-down requires and
   bottom-up builds in any mix, external changes, any number of aborted builds -- so the theorems need no premise on the
   history: whatever was built before, a session of requires that returns yields the from-scratch result. *)
From Coq Require Import List ZArith Lia.
From PieV Require Import Model.Build Proofs.ExecInv Proofs.ExecSession Proofs.Cert Proofs.Stable
  Proofs.Sim Proofs.NoAbort Proofs.Idem Proofs.NoBugAll Proofs.CertAll Proofs.NoAbortAll.
Import ListNotations.
Open Scope N_scope.

Section SA.
Variable gen : res -> option task.
Variable wck : rcid -> Prop.
Variable RC : rcid -> rchecker.
Variable OC : ocid -> ochecker.
Variable P : task -> prog.
Variable sf : rcid -> res -> content -> Z.
Variable always : ocid.
Hypothesis HS : forall c env r v, rc_stamp (RC c) env r v = inl (sf c r v).
Hypothesis HWF : forall t, WFP gen wck t [] (P t).
Hypothesis HC : forall c env r v v', rc_check (RC c) env r v' (sf c r v) = Consistent -> rc_view (RC c) v' = rc_view (RC c) v.
Hypothesis HW : forall c env r v v', wck c -> rc_check (RC c) env r v' (sf c r v) = Consistent -> v' = v.
Hypothesis HOC : forall c o o', oc_check (OC c) o' (oc_stamp (OC c) o) = true -> oc_view (OC c) o' = oc_view (OC c) o.
Let HNR : forall t, NR [] (P t). Proof. intros t. eapply WFP_NR. apply HWF. Qed.

Lemma any_history_JK fuel h :
  let w := snd (run_history RC OC P always fuel init_world h) in J (new_session w) /\ K RC OC P sf (new_session w).
Proof.
  intros w.
  destruct (run_history_V RC OC P always fuel h init_world) as [_ [Lw Nw]]; [apply Hinv_init|]. fold w in Lw, Nw.
  pose proof (run_history_KA RC OC P sf HS HNR always fuel h init_world Hinv_init (K_init RC OC P sf)) as Kw. fold w in Kw.
  split; [split; [apply Lw|split; [exact Nw|intros t X; discriminate]]|apply (K_same RC OC P sf w); [reflexivity|reflexivity|exact Kw]].
Qed.

(* C01, every history *)
Theorem incremental_equals_scratch_any_history fuel fuel0 h ops : td_only ops ->
  let w := snd (run_history RC OC P always fuel init_world h) in
  let ra := run_session RC OC P always fuel (new_session w) ops in
  let rb := run_session RC OC P always fuel0 (new_session (fresh_of w)) ops in
  Forall is_done (fst ra) -> Forall is_done (fst rb) ->
  fst ra = fst rb /\ forall r, get_content (snd ra) r = get_content (snd rb) r.
Proof.
  intros TO w ra rb DA DB. destruct (any_history_JK fuel h) as [Jw Kw]. fold w in Jw, Kw. destruct (fresh_start w) as [Jf [Ff S0]].
  destruct (sim_session gen wck RC OC P sf HS HWF HC HW HOC always fuel fuel0 ops (new_session w) (new_session (fresh_of w)) TO Jw Kw Jf Ff S0 DA DB) as [E S1].
  split; [exact E|]. intros r. apply (sim_content _ _ S1).
Qed.
(* C02, last clause, every history: the incremental session executes no task that the from-scratch session does not execute *)
Theorem incremental_executes_subset_any_history fuel fuel0 h ops : td_only ops ->
  let w := snd (run_history RC OC P always fuel init_world h) in
  let ra := run_session RC OC P always fuel (new_session w) ops in
  let rb := run_session RC OC P always fuel0 (new_session (fresh_of w)) ops in
  Forall is_done (fst ra) -> Forall is_done (fst rb) ->
  forall x, In x (execs (rev (trace (snd ra)))) -> In x (execs (rev (trace (snd rb)))).
Proof.
  intros TO w ra rb DA DB x Hx. destruct (any_history_JK fuel h) as [Jw Kw]. fold w in Jw, Kw. destruct (fresh_start w) as [Jf [Ff S0]].
  destruct (sim_session gen wck RC OC P sf HS HWF HC HW HOC always fuel fuel0 ops (new_session w) (new_session (fresh_of w)) TO Jw Kw Jf Ff S0 DA DB) as [_ S1].
  destruct (session_post RC OC P always fuel ops (new_session w) TO Jw DA) as [sa PA].
  destruct (session_post RC OC P always fuel0 ops (new_session (fresh_of w)) TO Jf DB) as [sb PB].
  fold ra in PA, S1. fold rb in PB, S1.
  rewrite (po_seg _ _ _ _ _ _ PA) in Hx. cbn [new_session trace] in Hx. rewrite app_nil_r, rev_involutive in Hx.
  rewrite (po_seg _ _ _ _ _ _ PB). cbn [new_session trace]. rewrite app_nil_r, rev_involutive.
  destruct (po_cons _ _ _ _ _ _ PA x Hx) as [C|[]].
  rewrite (sim_cons _ _ S1 x) in C.
  destruct (fresh_cons_exec [] _ _ sb PB Ff x C) as [Y|Y]; [discriminate Y|exact Y].
Qed.
End SA.

(* C01 in the static class (NoAbort.v): both sessions return, after every history *)
Section ST.
Variable gen : res -> option task.
Variable wck : rcid -> Prop.
Variable ord : task -> nat.
Variable RC : rcid -> rchecker.
Variable OC : ocid -> ochecker.
Variable P : task -> prog.
Variable sf : rcid -> res -> content -> Z.
Variable always : ocid.
Hypothesis HS : forall c env r v, rc_stamp (RC c) env r v = inl (sf c r v).
Hypothesis HWF : forall t, WFP gen wck t [] (P t).
Hypothesis HWO : forall t, WFO ord t (P t).
Hypothesis HC : forall c env r v v', rc_check (RC c) env r v' (sf c r v) = Consistent -> rc_view (RC c) v' = rc_view (RC c) v.
Hypothesis HW : forall c env r v v', wck c -> rc_check (RC c) env r v' (sf c r v) = Consistent -> v' = v.
Hypothesis HOC : forall c o o', oc_check (OC c) o' (oc_stamp (OC c) o) = true -> oc_view (OC c) o' = oc_view (OC c) o.

Theorem incremental_equals_scratch_total_any_history fuel fuel0 h ops : roots_below ord fuel ops -> roots_below ord fuel0 ops ->
  let w := snd (run_history RC OC P always fuel init_world h) in
  let ra := run_session RC OC P always fuel (new_session w) ops in
  let rb := run_session RC OC P always fuel0 (new_session (fresh_of w)) ops in
  Forall is_done (fst ra) /\ Forall is_done (fst rb) /\ fst ra = fst rb /\ forall r, get_content (snd ra) r = get_content (snd rb) r.
Proof.
  intros RA RB w ra rb. destruct (any_history_JK gen wck RC OC P sf always HS HWF fuel h) as [Jw _]. fold w in Jw.
  destruct (run_history_AQ gen wck ord RC OC P sf HS HWF HWO always fuel h init_world) as [_ Qw]; [apply Hinv_init|apply K_init|apply Q_init|]. fold w in Qw.
  destruct (session_returns gen wck ord RC OC P sf HS HWF HWO always fuel ops (new_session w) RA Jw ltac:(apply (Q_same gen ord w); [reflexivity|exact Qw])) as [DA _].
  destruct (session_returns gen wck ord RC OC P sf HS HWF HWO always fuel0 ops (new_session (fresh_of w)) RB (proj1 (fresh_start w))
              ltac:(intros a; apply QR_empty; reflexivity)) as [DB _].
  split; [exact DA|]. split; [exact DB|].
  apply (incremental_equals_scratch_any_history gen wck RC OC P sf always HS HWF HC HW HOC fuel fuel0 h ops (roots_td ord fuel ops RA) DA DB).
Qed.
(* C02, idempotence, every history: with reflexive checkers, a session of requires followed by the same session again executes nothing *)
Hypothesis HRefl : forall c env r v, rc_check (RC c) env r v (sf c r v) = Consistent.
Hypothesis HReflO : forall c o, oc_check (OC c) o (oc_stamp (OC c) o) = true.
Theorem second_session_executes_nothing_any_history fuel h ops : roots_below ord fuel ops ->
  let w := snd (run_history RC OC P always fuel init_world h) in
  let r1 := run_session RC OC P always fuel (new_session w) ops in
  let r2 := run_session RC OC P always fuel (new_session (snd r1)) ops in
  fst r2 = fst r1 /\ execs (rev (trace (snd r2))) = [] /\ forall r, get_content (snd r2) r = get_content (snd r1) r.
Proof.
  intros RB. destruct (any_history_JK gen wck RC OC P sf always HS HWF fuel h) as [Jw _].
  destruct (run_history_AQ gen wck ord RC OC P sf HS HWF HWO always fuel h init_world) as [_ Qw]; [apply Hinv_init|apply K_init|apply Q_init|].
  exact (twice_executes_nothing gen wck ord RC OC P sf always HS HWF HWO HRefl HReflO fuel _ ops Jw Qw RB).
Qed.
End ST.
