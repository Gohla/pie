(* Non-vacuity of C04_at_most_once_static_class: the witness program of C01Witness.v (static class) -- after a history that
   built both tasks and then changed the generator's input, the bottom-up build over that input does real work: it executes
   the generator and then its consumer, each once. *)
From Coq Require Import List NArith ZArith.
From PieV Require Import Model.Build Proofs.ExecInv Proofs.C01Witness Proofs.OnceAll.
Import ListNotations.
Open Scope N_scope.

Notation bux := (session_bottom_up RCx OCx Px 50 (new_session wx) [1]).
Lemma C04_witness_does_real_work :
  match bux with Done _ w' => execs (trace w') = [0; 1] | _ => False end.
Proof. vm_compute. reflexivity. Qed.
Lemma C04_witness_instance : match bux with Done _ w' => NoDup (execs (trace w')) | Abort _ _ => False | OutOfFuel => True end.
Proof. exact (bottom_up_at_most_once genx (fun _ => True) ordx RCx OCx Px (fun _ _ v => enc v) HSx HWFx HWOx 0 50 hx [1]). Qed.
