(* "Every task known to the Pie instance has an output": a store/trace invariant of every build, for ALL programs and checkers.
   A task node is live only if the task has an output, or its execution is open, or a require of it is in progress (the ghost
   list S).  Task nodes are created only by a require, which either ends with the task's output stored or aborts; an execution
   removes the output only while it is open.  Hence after ANY history in which no build aborted -- in particular after any history
   of the static class (NoAbortAll.v) -- every task that has a node has an output: "known to the instance" (C03) and "has a cached
   output" coincide.  That every build keeps the invariant is an instance of the pass of HasOut.v (FO_sinv, FO_sinvBU). *)
From Coq Require Import List NArith ZArith Bool Lia.
From PieV Require Import Model.Dag Model.Build Proofs.Local Proofs.DagWF Proofs.StoreInv Proofs.Effects Proofs.Steps
  Proofs.ExecInv Proofs.NoBug4All Proofs.NoReentry Proofs.NoBugAll Proofs.HasOut.
Import ListNotations.
Open Scope N_scope.

Definition FO (S : list task) (w : world) : Prop :=
  forall t, live (gr w) (tn t) = true -> get_task_output w t <> None \/ opn w t \/ In t S.
Definition fq (w w' : world) : Prop :=
  (forall t, live (gr w') (tn t) = true -> live (gr w) (tn t) = true) /\ outs w' = outs w /\ opens (trace w') = opens (trace w).

Lemma fq_refl w : fq w w. Proof. split; [trivial|split; reflexivity]. Qed.
Lemma fq_trans a b c : fq a b -> fq b c -> fq a c.
Proof. intros [A1 [A2 A3]] [B1 [B2 B3]]. split; [intros t X; apply A1, B1, X|split; congruence]. Qed.
Lemma FO_fq S w w' : fq w w' -> FO S w -> FO S w'.
Proof. intros [A1 [A2 A3]] H t X. unfold get_task_output, opn. rewrite A2, A3. apply (H t). apply A1. exact X. Qed.
Lemma fq_same w w' : gr w' = gr w -> outs w' = outs w -> opens (trace w') = opens (trace w) -> fq w w'.
Proof. intros G O T. split; [intros t; rewrite G; trivial|split; assumption]. Qed.
Lemma fq_emit w e : ev3 e = true -> fq w (emit w e).
Proof. intros H. apply fq_same; [reflexivity|reflexivity|apply opens_ev3; exact H]. Qed.
Lemma fq_set_content w r v : fq w (set_content w r v). Proof. apply fq_same; destruct v; reflexivity. Qed.
Lemma fq_queue_add w t : fq w (queue_add w t). Proof. unfold queue_add. destruct (memN _ _); [apply fq_refl|apply fq_same; reflexivity]. Qed.
Lemma live_add_node_other (g : dag dep) id m : m <> id -> live (add_node_at g id) m = live g m.
Proof. intros Hm. rewrite live_add_node, (proj2 (N.eqb_neq m id) Hm). apply orb_false_r. Qed.
Lemma fq_goc_res w r : fq w (get_or_create_resource_node w r).
Proof.
  unfold get_or_create_resource_node. destruct (live (gr w) (rn r)) eqn:E; [apply fq_refl|].
  split; [|split; reflexivity]. intros t X. cbn [gr set_gr] in X. rewrite live_add_node_other in X; [exact X|apply tn_rn].
Qed.
Lemma FO_goc_task S w t : In t S -> FO S w -> FO S (get_or_create_task_node w t).
Proof.
  intros Ht H x X. unfold get_or_create_task_node in *. destruct (live (gr w) (tn t)) eqn:E; [apply H; exact X|].
  cbn [gr set_gr] in X. destruct (N.eq_dec x t) as [->|Hx]; [right; right; exact Ht|].
  rewrite live_add_node_other in X; [|intros Z; apply tn_inj in Z; contradiction].
  change (get_task_output w x <> None \/ opn w x \/ In x S). apply H. exact X.
Qed.
Lemma fq_add_dependency w s d dp : WF (gr w) -> fq w (snd (add_dependency w s d dp)).
Proof.
  intros W. pose proof (add_dependency_view w s d dp W) as V. destruct (add_dependency_gr w s d dp) as [g Eg].
  destruct (add_dependency w s d dp) as [ar w']. cbn [snd] in *. subst w'. split; [|split; reflexivity].
  destruct V as [[G _]|[_ [_ [VL _]]]]; intros t X; [rewrite G in X; exact X|rewrite VL in X; exact X].
Qed.
Lemma FO_weaken S S' w : incl S S' -> FO S w -> FO S' w.
Proof. intros I H t X. destruct (H t X) as [A|[A|A]]; [left; exact A|right; left; exact A|right; right; apply I; exact A]. Qed.
Lemma FO_drop S t w : get_task_output w t <> None -> FO (t :: S) w -> FO S w.
Proof. intros Ho H x X. destruct (H x X) as [A|[A|[<-|A]]]; [left; exact A|right; left; exact A|left; exact Ho|right; right; exact A]. Qed.

Lemma FO_start S w t : StoreOK w -> FO S w -> FO S (startw w t).
Proof.
  intros HS H x X. destruct (reset_task_facts w t HS) as [_ _ R3 _ _ _ _ _ _ R10].
  unfold opn. change (opens (trace (startw w t))) with (t :: opens (trace w)).
  destruct (N.eq_dec x t) as [->|Hx]; [right; left; left; reflexivity|].
  change (get_task_output (reset_task w t) x <> None \/ In x (t :: opens (trace w)) \/ In x S). rewrite (R10 x Hx).
  assert (Lx : live (gr w) (tn x) = true).
  { change (live (gr (reset_task w t)) (tn x) = true) in X. unfold reset_task in X. cbn [gr set_gr set_outs] in X.
    destruct (remove_outgoing_view (gr w) (tn t) (proj1 HS)) as [_ [_ [LV _]]]. rewrite LV in X. exact X. }
  destruct (H x Lx) as [A|[A|A]]; [left; exact A|right; left; right; exact A|right; right; exact A].
Qed.
Lemma FO_end S w t o c : FO S w -> FO S (endw w t o c).
Proof.
  intros H x X. change (live (gr w) (tn x) = true) in X. unfold endw.
  destruct (N.eq_dec x t) as [->|Hx].
  - left. rewrite output_set_eq. discriminate.
  - unfold opn. rewrite output_set_other by exact Hx. change (get_task_output w x <> None \/ In x (removeN t (opens (trace w))) \/ In x S).
    destruct (H x X) as [A|[A|A]]; [left; exact A|right; left; apply In_removeN_other'; assumption|right; right; exact A].
Qed.

Lemma lstep_fq w w' : StoreOK w -> lstep w w' -> fq w w'.
Proof.
  intros H S. destruct S as [a e He|a r|a r v|a t r dp ar b _ _ _ E _].
  - apply fq_emit. destruct e; try discriminate; reflexivity.
  - apply fq_goc_res.
  - apply fq_set_content.
  - replace b with (snd (add_dependency a (tn t) (rn r) dp)) by (rewrite E; reflexivity). apply fq_add_dependency. apply H.
Qed.
Lemma sstep_fq w w' : sstep w w' -> fq w w'.
Proof.
  intros [a e He|a e|a t|a r]; [apply fq_emit; destruct e; try discriminate; reflexivity|apply fq_same; reflexivity|apply fq_queue_add|apply fq_goc_res].
Qed.
Lemma sched_fq w w' : chain sstep w w' -> fq w w'.
Proof. apply (chain_in sstep fq fq_refl fq_trans sstep_fq). Qed.
Definition fqO {A} (w : world) (m : outcome A) : Prop := match m with Done _ w' => fq w w' | _ => True end.
Lemma rw_fq {X} RC (o : rwop X) w : L w -> fqO w (run_rw RC o w).
Proof. intros HL. pose proof (rw_rel RC fq o w fq_refl fq_trans lstep_fq HL) as Y. destruct (run_rw RC o w); [exact Y|exact Logic.I|exact Logic.I]. Qed.

Lemma FO_sinv : SInv FO.
Proof.
  constructor.
  - intros S w w' HS X. apply FO_fq, lstep_fq; assumption.
  - intros S w w' G O T _. apply FO_fq, fq_same; assumption.
  - intros S w t. apply FO_goc_task.
  - intros S w s d W _. apply FO_fq, fq_add_dependency, W.
  - intros S t w. apply FO_weaken. intros x X. right. exact X.
  - intros S t w. apply FO_drop.
  - apply FO_start.
  - apply FO_end.
  - intros S w s t c st _. apply FO_fq. split; [|split; reflexivity]. intros x X. exact X.
Qed.

Lemma FO_sinvBU : SInvBU FO.
Proof. split; [intros S w w' X; apply FO_fq, sstep_fq; exact X|intros S w q; apply FO_fq, fq_same; reflexivity]. Qed.

Section FOS.
Variable RC : rcid -> rchecker.
Variable OC : ocid -> ochecker.
Variable P : task -> prog.
Variable always : ocid.

Definition okF {A} (S : list task) (m : outcome A) : Prop := match m with Done _ w' => FO S w' | _ => True end.
Definition FMC (mc : world -> task -> outcome Z) : Prop := forall S w t, StoreOK w -> FO S w -> okF S (mc w t).
Theorem make_consistent_td_F fuel : FMC (make_consistent_td RC OC P fuel).
Proof. exact (make_consistent_td_I RC OC P FO FO_sinv fuel). Qed.
Definition FBU (fuel : nat) : Prop :=
  (forall S w t, StoreOK w -> FO S w -> okF S (bu_execute_and_schedule RC OC P fuel w t)) /\
  (forall S w t, StoreOK w -> FO S w -> okF S (bu_make_consistent RC OC P fuel w t)) /\
  (forall S w t, StoreOK w -> FO S w -> okF S (bu_require_scheduled_now RC OC P fuel w t)).
Theorem bottom_up_F fuel : FBU fuel.
Proof. exact (bottom_up_I RC OC P FO FO_sinv FO_sinvBU fuel). Qed.
Theorem execute_scheduled_F fuel : forall S w, StoreOK w -> FO S w -> okF S (execute_scheduled RC OC P fuel w).
Proof. exact (execute_scheduled_I RC OC P FO FO_sinv FO_sinvBU fuel). Qed.
Lemma session_require_F fuel w t : StoreOK w -> FO [] w -> okF [] (session_require RC OC P always fuel w t).
Proof. exact (session_require_I RC OC P FO FO_sinv always fuel [] w t). Qed.
Lemma session_bottom_up_F fuel w ch : StoreOK w -> FO [] w -> okF [] (session_bottom_up RC OC P fuel w ch).
Proof. exact (session_bottom_up_I RC OC P FO FO_sinv FO_sinvBU fuel [] w ch). Qed.

(* at the end of a session that did not abort, no execution is open (NoReentry.SPre), so every known task has an output *)
Definition Full (w : world) : Prop := forall t, live (gr w) (tn t) = true -> get_task_output w t <> None.
Definition noab (r : sres) : Prop := forall k, r <> RAbort k.

Lemma Full_FO_new_session w : Full w -> FO [] (new_session w).
Proof. intros H t X. left. apply H. exact X. Qed.
Lemma FO_Full w : FO [] w -> opens (trace w) = [] -> Full w.
Proof. intros H O t X. destruct (H t X) as [A|[A|[]]]; [exact A|]. unfold opn in A. rewrite O in A. destruct A. Qed.

Lemma run_session_Full fuel ops : forall w, SPre w -> FO [] w -> Forall noab (fst (run_session RC OC P always fuel w ops)) ->
  let w' := snd (run_session RC OC P always fuel w ops) in L w' /\ FO [] w' /\ opens (trace w') = [].
Proof.
  induction ops as [|o tl IH]; intros w Hw Hf NA; cbn [run_session] in *; [split; [apply Hw|split; [exact Hf|apply Hw]]|].
  assert (X : match run_sop RC OC P always fuel w o with (RDone _, w') => SPre w' /\ FO [] w' | (RAbort _, _) => True | (RFuel, w') => w' = w end).
  { destruct o as [t|ch]; cbn [run_sop].
    - pose proof (session_require_N RC OC P always fuel w t Hw) as Y. pose proof (session_require_F fuel w t (proj1 (proj1 (proj1 Hw))) Hf) as Z.
      destruct (session_require RC OC P always fuel w t); cbn in *; [split; assumption|exact Logic.I|reflexivity].
    - pose proof (session_bottom_up_N RC OC P fuel w ch Hw) as Y. pose proof (session_bottom_up_F fuel w ch (proj1 (proj1 (proj1 Hw))) Hf) as Z.
      destruct (session_bottom_up RC OC P fuel w ch); cbn in *; [split; assumption|exact Logic.I|reflexivity]. }
  destruct (run_sop RC OC P always fuel w o) as [[x|k|] w'].
  - destruct X as [X1 X2]. specialize (IH w' X1 X2). destruct (run_session RC OC P always fuel w' tl) as [rs w'']. cbn [fst snd] in *.
    apply IH. inversion NA; assumption.
  - cbn [fst] in NA. inversion NA as [|r0 l0 N0 _]. exfalso. exact (N0 k eq_refl).
  - subst w'. cbn [snd]. split; [apply Hw|split; [exact Hf|apply Hw]].
Qed.

(* EVERY history in which no build aborts, for all programs and checkers: every task that has a node has an output *)
Theorem full_outputs_any_history fuel h : forall w, L w -> Full w ->
  Forall (Forall noab) (fst (run_history RC OC P always fuel w h)) ->
  L (snd (run_history RC OC P always fuel w h)) /\ Full (snd (run_history RC OC P always fuel w h)).
Proof.
  induction h as [|s tl IH]; intros w HL Hf NA; cbn [run_history] in *; [split; assumption|].
  assert (X : Forall noab (fst (run_step RC OC P always fuel w s)) -> L (snd (run_step RC OC P always fuel w s)) /\ Full (snd (run_step RC OC P always fuel w s))).
  { destruct s as [r v|e|ops]; cbn [run_step fst snd]; intros NS.
    - split; [apply L_set_content; exact HL|]. intros t X. change (live (gr (set_content w r v)) (tn t) = true) in X.
      assert (G : gr (set_content w r v) = gr w) by (destruct v; reflexivity). assert (O : outs (set_content w r v) = outs w) by (destruct v; reflexivity).
      unfold get_task_output. rewrite O. apply Hf. rewrite <- G. exact X.
    - split; [apply L_set_env; exact HL|exact Hf].
    - destruct (run_session_Full fuel ops (new_session w) (SPre_new_session w HL) (Full_FO_new_session w Hf) NS) as [A [B C]].
      split; [exact A|apply FO_Full; assumption]. }
  destruct (run_step RC OC P always fuel w s) as [r w'] eqn:E. cbn [fst snd] in X.
  destruct (run_history RC OC P always fuel w' tl) as [rs w''] eqn:E2. cbn [fst snd] in *.
  inversion NA as [|r0 l0 N0 N1]; subst. destruct (X N0) as [L1 F1].
  specialize (IH w' L1 F1). rewrite E2 in IH. cbn [fst snd] in IH. apply IH. exact N1.
Qed.

Lemma Full_init : Full init_world.
Proof. intros t X. discriminate X. Qed.

End FOS.

(* the static class: no build of any history aborts (NoAbortAll.v), hence after ANY history every known task has an output *)
From PieV Require Import Proofs.Stable Proofs.NoAbort Proofs.NoAbortAll.
Section Static.
Variable gen : res -> option task.
Variable wck : rcid -> Prop.
Variable ord : task -> nat.
Variable RC : rcid -> rchecker.
Variable OC : ocid -> ochecker.
Variable P : task -> prog.
Variable sf : rcid -> res -> content -> Z.
Variable always : ocid.
Hypothesis HS : forall c env r v, rc_stamp (RC c) env r v = inl (sf c r v).
Hypothesis HWF : forall t, WFP gen wck t [] (P t).
Hypothesis HWO : forall t, WFO ord t (P t).

Theorem static_class_every_known_task_has_an_output fuel h :
  let w := snd (run_history RC OC P always fuel init_world h) in
  forall t, live (gr w) (tn t) = true -> get_task_output w t <> None.
Proof.
  intros w. apply (full_outputs_any_history RC OC P always fuel h init_world L_init Full_init).
  pose proof (static_class_never_aborts_any_history gen wck ord RC OC P sf HS HWF HWO always fuel h) as X.
  eapply Forall_impl; [|exact X]. intros l Hl. eapply Forall_impl; [|exact Hl]. intros r Hr k E. subst r. exact Hr.
Qed.
End Static.
