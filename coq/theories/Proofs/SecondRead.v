(* C09 / C08: one dependency per (task, target).  A task that reads a resource it has already read (or written) in the same
   execution -- with whatever checker -- leaves the dependency graph exactly as it was: the dependency recorded first, with ITS
   checker and ITS stamp, is the one that later decides consistency.  (What the seeded change C09_r33 broke; with a more lenient
   first checker this is the read form of the recorded finding O7.) *)
From Coq Require Import List NArith ZArith Bool.
From PieV Require Import Model.Dag Model.Build Proofs.DagWF Proofs.DagAddEdge Proofs.StoreInv.
Import ListNotations.
Open Scope N_scope.

Section SR.
Variable RC : rcid -> rchecker.

Lemma set_gr_same w : set_gr w (gr w) = w. Proof. destruct w; reflexivity. Qed.

Theorem second_read_keeps_first_dependency w t r c x w' :
  StoreOK w -> cur w = Some t -> In (rn r) (kids_of (gr w) (tn t)) ->
  sess_read RC w r c = Done x w' -> gr w' = gr w.
Proof.
  intros [W _] Hc Hk. unfold sess_read. rewrite Hc.
  destruct (wf_closed _ W _ _ Hk) as [Lt Lr].
  assert (G2 : get_or_create_resource_node (emit w (EReadStart r c)) r = emit w (EReadStart r c)).
  { unfold get_or_create_resource_node. cbn [gr emit]. rewrite Lr. reflexivity. }
  rewrite G2.
  destruct (hidden_read_check _ t r); [discriminate|].
  destruct (rc_stamp (RC c) _ r _) as [st|e]; [|intros H; inversion H; reflexivity].
  unfold add_dependency. cbn [gr emit].
  destruct (add_edge_early (gr w) (tn t) (rn r) (DRead r c st) (or_intror (or_intror (or_intror Hk)))) as [S [NF _]].
  destruct (add_edge (gr w) (tn t) (rn r) (DRead r c st)) as [[b|[|]|] g'] eqn:E; cbn [snd fst] in S, NF; subst g';
    try (intros H; inversion H; reflexivity).
Qed.
End SR.
