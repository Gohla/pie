(* The invariant principle for the build interpreters: one traversal, [Base], of every interpreter and session operation.  An
   invariant I kept by the primitive operations of a session is kept by all of them, for Done and for Abort outcomes (aborts of
   the kinds [ex] excused), for all programs, checkers and fuel; I may depend on a ghost that requires and brackets of events
   move.  An execution starts where [X w t] holds, what the caller of execute_with knows about t: X has to follow where a task
   is popped from the queue or found to be new ([BaseBu]) and where a top-down dependency check does not say "consistent"
   ([BaseTd]).  The front ends [Preserved] (predicates on the store that every primitive keeps on its own; ABug 4, the model's
   "graph search fuel exhausted / missing node", which the code does not have, is excused) and [Kept] / [KeptTd] (invariants
   of the stream, the queue, the outputs and the reported errors; no abort is excused) have the unit ghost; HasOut.SInv and
   Trace.nest_base use it. *)
From Coq Require Import List NArith ZArith Bool.
From PieV Require Import Model.Dag Model.Build Proofs.DagLib Proofs.Queue Proofs.Steps Proofs.Local2.
Import ListNotations.
Open Scope N_scope.

(* the two execution events are not emitted alone: they are part of pr_exec_start / pr_exec_end *)
Definition nonexec (e : event) : bool := match e with EExecStart _ | EExecEnd _ _ => false | _ => true end.

Definition calm (e : event) : bool :=
  match e with
  | ESchedTask _ | EExecStart _ | EExecEnd _ _ => false
  | ECheckTaskEnd _ _ _ b | ECheckReqTaskEnd _ _ _ b => negb b
  | ECheckResEnd _ _ _ x | ECheckReadResEnd _ _ _ x => match x with Consistent => true | _ => false end
  | _ => true
  end.
(* check_task / try_schedule push the checker's error directly after the end event *)
Definition reported (x : cres) (w : world) : world := match x with CErr e => push_err w e | _ => w end.
Lemma calm_nonexec e : calm e = true -> nonexec e = true. Proof. destruct e; cbn; congruence. Qed.

Lemma queue_pop_popped w t w' : queue_pop w = Some (t, w') -> In t (queue w) /\ w' = popped w t.
Proof.
  unfold queue_pop. destruct (rev (sort_queue w)) as [|x tl] eqn:E; [discriminate|]. intros H. inversion H; subst x w'.
  split; [|reflexivity]. apply In_sort_queue, in_rev. rewrite E. left. reflexivity.
Qed.
Lemma pop_least_popped w s t w' : pop_least_from w s = Some (t, w') -> In t (queue w) /\ w' = popped w t.
Proof.
  unfold pop_least_from. destruct (find _ _) as [x|] eqn:E; [|discriminate]. intros H. inversion H; subst x w'.
  split; [|reflexivity]. apply In_sort_queue, in_rev. apply (find_some _ _ E).
Qed.
Lemma popped_queue w t x : In x (queue (popped w t)) <-> In x (queue w) /\ x <> t.
Proof. cbn. rewrite In_removeN, In_sort_queue. reflexivity. Qed.

Lemma queue_add_fields w t : trace (queue_add w t) = trace w /\ outs (queue_add w t) = outs w /\ errs (queue_add w t) = errs w /\
  forall x, In x (queue (queue_add w t)) <-> In x (queue w) \/ x = t.
Proof. split; [|split; [|split; [|intros x; apply In_queue_add]]]; unfold queue_add; destruct (memN t (queue w)); reflexivity. Qed.

(* the pairs of events between which the interpreters run something (the execution events aside: b_start, b_end; the events
   of a read or write are inside b_rw) *)
Inductive brackets : event -> event -> Prop :=
| br_build : brackets EBuildStart EBuildEnd
| br_require t c st o : brackets (ERequireStart t c) (ERequireEnd t c st o)
| br_check_task t c st b : brackets (ECheckTaskStart t c st) (ECheckTaskEnd t c st b)
| br_check_res r c st x : brackets (ECheckResStart r c st) (ECheckResEnd r c st x)
| br_by_res r : brackets (ESchedByResStart r) (ESchedByResEnd r)
| br_by_task t : brackets (ESchedByTaskStart t) (ESchedByTaskEnd t)
| br_check_req t c st b : brackets (ECheckReqTaskStart t c st) (ECheckReqTaskEnd t c st b)
| br_check_read t c st x : brackets (ECheckReadResStart t c st) (ECheckReadResEnd t c st x).
Lemma brackets_calm s e : brackets s e -> calm s = true. Proof. destruct 1; reflexivity. Qed.

(* what the invariants of Kept speak of (more than the nesting of the stream sees, Trace.v); operations on the store alone
   leave all four as they are *)
Definition quiet (w w' : world) : Prop := trace w' = trace w /\ queue w' = queue w /\ outs w' = outs w /\ errs w' = errs w.
Definition quietO {A} (w : world) (m : outcome A) : Prop := match m with Done _ w' | Abort _ w' => quiet w w' | OutOfFuel => True end.
Lemma quiet_gr w g : quiet w (set_gr w g). Proof. repeat split. Qed.
Lemma quiet_goc w n : quiet w (goc w n). Proof. destruct (goc_gr w n) as [g ->]. apply quiet_gr. Qed.
Lemma quiet_add_dependency w s d dp : quiet w (snd (add_dependency w s d dp)).
Proof. destruct (add_dependency_gr w s d dp) as [g ->]. apply quiet_gr. Qed.
Lemma quiet_set_content w r v : quiet w (set_content w r v). Proof. destruct v; repeat split. Qed.
Lemma quiet_reserve w t : quietO w (reserve_require_dependency w t).
Proof.
  unfold reserve_require_dependency. destruct (cur w) as [s|]; [|repeat split].
  pose proof (quiet_add_dependency w (tn s) (tn t) DReserved) as H. destruct (add_dependency _ _ _ _) as [[| |] w']; exact H.
Qed.
Lemma quiet_update w t c st : quietO w (update_require_dependency w t c st).
Proof. unfold update_require_dependency. destruct (cur w) as [s|]; [|repeat split]. destruct (get_edata _ _ _); repeat split. Qed.

Section Base.
Variable RC : rcid -> rchecker.
Variable OC : ocid -> ochecker.
Variable P : task -> prog.
Variable G : Type.
Variable push : G -> task -> G.
Variable opn : G -> event -> G.
Variable I : G -> world -> Prop.
Variable X : G -> world -> task -> Prop.
Variable ex : akind -> Prop.
Variable Ab : world -> Prop.      (* what an abort leaves behind, whatever the ghost *)

Definition okG {A} (g : G) (m : outcome A) : Prop :=
  match m with Done _ w => I g w | Abort k w => ex k \/ Ab w | OutOfFuel => True end.

(* an invariant kept by the steps of a read or write (Steps.lstep, lfail) meets b_rw; all three front ends do so *)
Lemma steps_rw g : (forall w, I g w -> Ab w) -> (forall w w', I g w -> lstep w w' -> I g w') ->
  (forall w w', I g w -> lfail w w' -> ex (ABug 4) \/ Ab w') -> forall Y (o : rwop Y) w, I g w -> okG g (run_rw RC o w).
Proof.
  intros Ha Hs Hf Y o w Hw. assert (Hc : forall w', chain lstep w w' -> I g w').
  { intros w' Cw. revert Hw. apply (chain_in lstep (fun a b => I g a -> I g b)); [auto|auto|intros a b S H; exact (Hs a b H S)|exact Cw]. }
  eapply holds_mono; [exact (run_rw_chain RC o w)|intros x w' _; apply Hc|].
  intros k w' _ [[-> [w0 [C F]]]|[_ C]]; [exact (Hf w0 w' (Hc w0 C) F)|right; apply Ha, Hc, C].
Qed.

Record Base : Prop := {
  b_abort : forall g w, I g w -> Ab w;
  b_push : forall g t w, I g w -> I (push g t) w;
  b_pop : forall g t w, get_task_output w t <> None -> I (push g t) w -> I g w;
  b_rw : forall g Y (o : rwop Y) w, I g w -> okG g (run_rw RC o w);
  b_reserve : forall g w t, I g w -> okG g (reserve_require_dependency w t);
  b_update : forall g w t c st, get_task_output w t <> None -> I g w -> okG g (update_require_dependency w t c st);
  b_goc_task : forall g w t, I (push g t) w -> I (push g t) (get_or_create_task_node w t);
  b_mark : forall g w t, I g w -> I g (mark_consistent w t);
  b_open : forall g w s e, brackets s e -> I g w -> I (opn g s) (emit w s);
  b_close : forall g w s e, brackets s e -> calm e = true -> I (opn g s) w -> I g (emit w e);
  b_start : forall g w t, X g w t -> I (opn g (EExecStart t)) (startw w t);
  (* c: the task that was executing where this execution started; that world is out of sight here *)
  b_end : forall g w t o c, I (opn g (EExecStart t)) w -> I g (endw w t o c)
}.
Hypothesis B : Base.

Lemma abort_ok {A} g k w : I g w -> okG g (@Abort A k w). Proof. intros H. right. exact (b_abort B g w H). Qed.
(* m may run under another ghost than what follows it *)
Lemma bind_g {A C} g g' (m : outcome A) (f : A -> world -> outcome C) :
  okG g m -> (forall a w, I g w -> okG g' (f a w)) -> okG g' (bind m f).
Proof. destruct m; cbn; intros H F; [apply F; exact H|exact H|exact Logic.I]. Qed.

Definition REQ (req : world -> task -> ocid -> outcome Z) : Prop := forall g w t c, I g w -> okG g (req w t c).
Definition MC (mc : world -> task -> outcome Z) : Prop := forall g w t, I (push g t) w -> okG (push g t) (mc w t).
Definition OUT (mc : world -> task -> outcome Z) : Prop := forall w t, outIs t (mc w t).

Lemma exec_prog_g req : REQ req -> forall g p w, I g w -> okG g (exec_prog RC OC req p w).
Proof.
  intros Hreq g. induction p as [o| |t c k IH|Y o k IH] using prog_rw_ind; intros w Hw; cbn [exec_prog].
  - exact Hw.
  - apply abort_ok. exact Hw.
  - apply (bind_g g); [apply Hreq; exact Hw|]. intros x w' Hw'. apply IH. exact Hw'.
  - rewrite exec_prog_rw. apply (bind_g g); [apply (b_rw B); exact Hw|]. intros x w' Hw'. apply IH. exact Hw'.
Qed.
Lemma execute_with_g req g w t : REQ req -> X g w t -> okG g (execute_with RC OC P req w t).
Proof.
  intros Hreq Hx. unfold execute_with. apply (bind_g (opn g (EExecStart t))).
  - apply exec_prog_g; [exact Hreq|]. apply (b_start B). exact Hx.
  - intros o w3 H3. apply (b_end B). exact H3.
Qed.
Lemma sub_g mc g w t : MC mc -> OUT mc -> I (push g t) w ->
  match mc w t with Done o w' => I g w' /\ get_task_output w' t = Some o | Abort k w' => ex k \/ Ab w' | OutOfFuel => True end.
Proof.
  intros Hmc Ho Hw. eapply holds_mono; [exact (holds_and _ _ _ _ _ (Hmc g w t Hw) (Ho w t))| |intros k w' _ [M _]; exact M].
  intros o w' _ [M O]. split; [apply (b_pop B g t); [rewrite O; discriminate|exact M]|exact O].
Qed.
Lemma require_with_g mc : MC mc -> OUT mc -> REQ (require_with OC mc).
Proof.
  intros Hmc Ho g w t c Hw. unfold require_with. set (s := ERequireStart t c). apply (bind_g (push (opn g s) t)).
  - apply (b_reserve B), (b_goc_task B), (b_push B), (b_open B g w s _ (br_require t c 0%Z 0%Z)). exact Hw.
  - intros _ w3 H3. eapply holds_bind; [exact (sub_g mc (opn g s) w3 t Hmc Ho H3)|]. intros o w4 _ [H4 O4].
    apply (bind_g g); [|intros _ w6 H6; exact H6].
    apply (b_update B); [change (get_task_output w4 t <> None); rewrite O4; discriminate|].
    exact (b_close B g w4 s _ (br_require t c _ o) eq_refl H4).
Qed.
Lemma require_bu_with_g mc : MC mc -> OUT mc -> REQ (require_bu_with OC mc).
Proof.
  intros Hmc Ho g w t c Hw. unfold require_bu_with. apply (bind_g g); [apply require_with_g; assumption|].
  intros o w' H'. apply (b_mark B). exact H'.
Qed.

Record BaseBu : Prop := {
  b_goc_res : forall g w r, I g w -> I g (get_or_create_resource_node w r);
  b_sched_res : forall g w t c st x, x <> Consistent -> I (opn g (ECheckReadResStart t c st)) w ->
    I g (queue_add (emit (reported x (emit w (ECheckReadResEnd t c st x))) (ESchedTask t)) t);
  b_sched_req : forall g w t c st, I (opn g (ECheckReqTaskStart t c st)) w ->
    I g (queue_add (emit (emit w (ECheckReqTaskEnd t c st true)) (ESchedTask t)) t);
  b_pop_queue : forall g w t, I g w -> In t (queue w) -> X g (popped w t) t;
  b_new : forall g w t, I g w -> get_task_output w t = None -> ~ In t (queue w) -> X g w t
}.
Hypothesis BU : BaseBu.

Lemma try_schedule_g g w t r c st : I g w -> I g (try_schedule RC w t r c st).
Proof.
  intros Hw. unfold try_schedule. cbv zeta. apply (b_open B g w _ _ (br_check_read t c st Consistent)) in Hw.
  destruct (rc_check _ _ _ _ _) as [| |e].
  - exact (b_close B g _ _ _ (br_check_read t c st Consistent) eq_refl Hw).
  - apply (b_sched_res BU _ _ t c st Inconsistent); [discriminate|exact Hw].
  - apply (b_sched_res BU _ _ t c st (CErr e)); [discriminate|exact Hw].
Qed.
Lemma try_schedule_edge_g g b w p : I g w -> I g (try_schedule_edge RC b w p).
Proof.
  intros Hw. unfold try_schedule_edge. destruct (snd p) as [[|t c st|r c st|r c st]|]; try exact Hw.
  - apply try_schedule_g; exact Hw.
  - destruct b; [exact Hw|apply try_schedule_g; exact Hw].
Qed.
Lemma fold_g {Y} g (f : world -> Y -> world) l : (forall w y, I g w -> I g (f w y)) -> forall w, I g w -> I g (fold_left f l w).
Proof. intros Hf. induction l as [|y tl IH]; intros w Hw; cbn [fold_left]; [exact Hw|apply IH, Hf; exact Hw]. Qed.
Lemma schedule_tasks_affected_by_g g w r : I g w -> I g (schedule_tasks_affected_by RC w r).
Proof.
  intros Hw. unfold schedule_tasks_affected_by. cbv zeta.
  apply (b_close B g _ _ _ (br_by_res r) eq_refl). apply fold_g; [intros; apply try_schedule_edge_g; assumption|].
  apply (b_goc_res BU), (b_open B g w _ _ (br_by_res r)). exact Hw.
Qed.
Lemma schedule_by_written_g g w r : I g w -> I g (schedule_by_written RC w r).
Proof.
  intros Hw. unfold schedule_by_written. cbv zeta.
  apply (b_close B g _ _ _ (br_by_res r) eq_refl). apply fold_g; [intros; apply try_schedule_edge_g; assumption|].
  apply (b_open B g w _ _ (br_by_res r)). exact Hw.
Qed.
Lemma schedule_requirer_g g o w p : I g w -> I g (schedule_requirer OC o w p).
Proof.
  intros Hw. unfold schedule_requirer. destruct (snd p) as [[|t c st|r c st|r c st]|]; try exact Hw. cbv zeta.
  apply (b_open B g w _ _ (br_check_req (un (fst p)) c st false)) in Hw.
  destruct (oc_check (OC c) o st); [exact (b_close B g _ _ _ (br_check_req _ c st false) eq_refl Hw)|apply (b_sched_req BU); exact Hw].
Qed.
Lemma schedule_after_g g w t o : I g w -> I g (schedule_after RC OC w t o).
Proof.
  intros Hw. unfold schedule_after. cbv zeta. apply (b_mark B).
  apply (b_close B g _ _ _ (br_by_task t) eq_refl). apply fold_g; [intros; apply schedule_requirer_g; assumption|].
  apply (b_open B g _ _ _ (br_by_task t)). apply fold_g; [intros; apply schedule_by_written_g; assumption|exact Hw].
Qed.

Theorem bottom_up_g fuel :
  (forall g w t, X g w t -> okG g (bu_execute_and_schedule RC OC P fuel w t)) /\
  (forall g w t, I g w -> okG g (bu_make_consistent RC OC P fuel w t)) /\
  (forall g w t, I g w -> okG g (bu_require_scheduled_now RC OC P fuel w t)).
Proof.
  induction fuel as [|f [IH1 [IH2 IH3]]]; [repeat split; intros; exact Logic.I|].
  assert (Hreq : REQ (require_bu_with OC (bu_make_consistent RC OC P f))).
  { apply require_bu_with_g; [intros g w t; apply IH2|intros w t; apply (bu_out RC OC P f)]. }
  split; [|split].
  - intros g w t Hx. cbn [bu_execute_and_schedule]. apply (bind_g g); [apply execute_with_g; assumption|].
    intros o w1 H1. apply schedule_after_g. exact H1.
  - intros g w t Hw. cbn [bu_make_consistent].
    destruct (memN t (consistent w)); [destruct (get_task_output w t); [exact Hw|apply abort_ok; exact Hw]|].
    destruct (_ && _)%bool eqn:C.
    + apply andb_true_iff in C. destruct C as [Ho M]. apply negb_true_iff, memN_false in M.
      apply execute_with_g; [exact Hreq|]. apply (b_new BU); [exact Hw|destruct (get_task_output w t); [discriminate|reflexivity]|exact M].
    + apply (bind_g g); [apply IH3; exact Hw|]. intros r w1 H1. destruct r; [exact H1|].
      destruct (get_task_output w1 t); [exact H1|apply abort_ok; exact H1].
  - intros g w t Hw. cbn [bu_require_scheduled_now]. destruct (queue w); [exact Hw|].
    destruct (pop_least_from w t) as [[m w1]|] eqn:E; [|exact Hw]. destruct (pop_least_popped _ _ _ _ E) as [Hin ->].
    apply (bind_g g); [apply IH1, (b_pop_queue BU); assumption|]. intros o w2 H2. destruct (N.eqb m t); [exact H2|apply IH3; exact H2].
Qed.

Theorem execute_scheduled_g fuel : forall g w, I g w -> okG g (execute_scheduled RC OC P fuel w).
Proof.
  induction fuel as [|f IH]; intros g w Hw; cbn [execute_scheduled]; [exact Logic.I|].
  destruct (queue_pop w) as [[t w1]|] eqn:E; [|exact Hw]. destruct (queue_pop_popped _ _ _ E) as [Hin ->].
  apply (bind_g g); [apply (proj1 (bottom_up_g f)), (b_pop_queue BU); assumption|]. intros _ w2 H2. apply IH. exact H2.
Qed.

Theorem session_bottom_up_g fuel g w ch : (forall w, I g w -> I g (set_cur w None)) -> I g (set_queue w []) ->
  okG g (session_bottom_up RC OC P fuel w ch).
Proof.
  intros Hc Hw. unfold session_bottom_up. cbv zeta. apply (bind_g (opn g EBuildStart)).
  - apply execute_scheduled_g, (b_open B g _ _ _ br_build). apply Hc.
    apply fold_g; [intros; apply schedule_tasks_affected_by_g; assumption|exact Hw].
  - intros _ w3 H3. exact (b_close B g w3 _ _ br_build eq_refl H3).
Qed.

Record BaseTd : Prop := {
  b_fail_task : forall g w d c st t, I (opn g (ECheckTaskStart d c st)) w -> X g (emit w (ECheckTaskEnd d c st true)) t;
  b_fail_res : forall g w r c st x t, x <> Consistent -> I (opn g (ECheckResStart r c st)) w ->
    X g (reported x (emit w (ECheckResEnd r c st x))) t;
  b_new_td : forall g w t, I g w -> get_task_output w t = None -> X g w t
}.
Hypothesis BT : BaseTd.

(* check_deps does not know whose dependencies it checks: when it answers false the caller executes the owner in the world
   it returns, so that world must give X for every task *)
Definition okC (g : G) (m : outcome bool) : Prop :=
  match m with Done true w => I g w | Abort k w => ex k \/ Ab w | Done false w => forall t, X g w t | OutOfFuel => True end.

Lemma check_resource_g g (rest : world -> outcome bool) w r c st : (forall w1, I g w1 -> okC g (rest w1)) -> I g w ->
  okC g (match check_resource_td RC w r c st with
       | (Consistent, w1) => rest w1 | (Inconsistent, w1) => Done false w1 | (CErr e, w1) => Done false (push_err w1 e)
       end).
Proof.
  intros Hrest Hw. unfold check_resource_td. cbv zeta. apply (b_open B g w _ _ (br_check_res r c st Consistent)) in Hw.
  destruct (rc_check _ _ _ _ _) as [| |e].
  - exact (Hrest _ (b_close B g _ _ _ (br_check_res r c st Consistent) eq_refl Hw)).
  - intros t. apply (b_fail_res BT _ _ r c st Inconsistent); [discriminate|exact Hw].
  - intros t. apply (b_fail_res BT _ _ r c st (CErr e)); [discriminate|exact Hw].
Qed.

Lemma check_deps_g mc : MC mc -> OUT mc -> forall g ds w, I g w -> okC g (check_deps RC OC mc ds w).
Proof.
  intros Hmc Ho g. induction ds as [|d tl IH]; intros w Hw; cbn [check_deps]; [exact Hw|].
  destruct d as [[|t c st|r c st|r c st]|]; try (right; exact (b_abort B g w Hw)); try (apply check_resource_g; [exact IH|exact Hw]).
  set (s := ECheckTaskStart t c st).
  eapply holds_bind; [exact (sub_g mc (opn g s) _ t Hmc Ho (b_push B _ t _ (b_open B g w s _ (br_check_task t c st false) Hw)))|]. intros o w2 _ [H2 _].
  destruct (oc_check (OC c) o st); cbn [negb]; [exact (IH _ (b_close B g w2 s _ (br_check_task t c st false) eq_refl H2))|].
  intros t0. apply (b_fail_task BT). exact H2.
Qed.

Theorem make_consistent_td_g fuel : MC (make_consistent_td RC OC P fuel).
Proof.
  induction fuel as [|f IH]; intros g w t Hw; cbn [make_consistent_td]; [exact Logic.I|].
  apply (b_goc_task B g w t) in Hw. set (w0 := get_or_create_task_node w t) in *. set (g1 := push g t) in *.
  destruct (memN t (consistent w0)); [destruct (get_task_output w0 t); [exact Hw|apply abort_ok; exact Hw]|].
  assert (Hreq : REQ (require_with OC (make_consistent_td RC OC P f))) by (apply require_with_g; [exact IH|intros w' t'; apply td_out]).
  assert (Hex : forall w1, X g1 w1 t -> okG g1 (bind (execute_with RC OC P (require_with OC (make_consistent_td RC OC P f)) w1 t)
                                            (fun o w2 => Done o (mark_consistent w2 t)))).
  { intros w1 Hx. apply (bind_g g1); [apply execute_with_g; assumption|]. intros o w2 H2. apply (b_mark B). exact H2. }
  destruct (get_task_output w0 t) eqn:Ho; [|apply Hex, (b_new_td BT); assumption].
  eapply holds_bind; [exact (check_deps_g _ IH (fun w' t' => td_out RC OC P f w' t') g1 (deps_of_task w0 t) w0 Hw)|]. intros [|] w1 _ H; [|apply Hex, H].
  destruct (get_task_output w1 t) eqn:Ho1; [apply (b_mark B); exact H|apply Hex, (b_new_td BT); assumption].
Qed.

Variable always : ocid.

Theorem session_require_g fuel g w t : (forall w, I g w -> I g (set_cur w None)) -> I g w -> okG g (session_require RC OC P always fuel w t).
Proof.
  intros Hc Hw. unfold session_require, require_td. apply (bind_g (opn g EBuildStart)).
  - apply require_with_g; [apply make_consistent_td_g|intros w' t'; apply td_out|]. apply (b_open B g _ _ _ br_build). apply Hc. exact Hw.
  - intros o w2 H2. exact (b_close B g w2 _ _ br_build eq_refl H2).
Qed.

End Base.

Section InvE.
Variable RC : rcid -> rchecker.
Variable OC : ocid -> ochecker.
Variable P : task -> prog.
Variable I : world -> Prop.

Definition okO {A} (m : outcome A) : Prop :=
  match m with Done _ w => I w | Abort k w => k = ABug 4 \/ I w | OutOfFuel => True end.

Definition excused (k : akind) : Prop := k = ABug 4.
Lemma lstep_rw : (forall w w', I w -> lstep w w' -> I w') -> forall Y (o : rwop Y) w, I w -> okO (run_rw RC o w).
Proof. intros Hs. exact (steps_rw RC unit (fun _ => I) excused I tt (fun _ H => H) Hs (fun _ _ _ _ => or_introl eq_refl)). Qed.

Record Preserved : Prop := {
  pr_emit : forall w e, nonexec e = true -> I w -> I (emit w e);
  pr_goc_task : forall w t, I w -> I (get_or_create_task_node w t);
  pr_reserve : forall w t, I w -> okO (reserve_require_dependency w t);
  pr_update : forall w t c st, I w -> okO (update_require_dependency w t c st);
  pr_rw : forall Y (o : rwop Y) w, I w -> okO (run_rw RC o w);
  pr_exec_start : forall w t, I w -> I (startw w t);
  (* w0: the world in which the execution started, whose executing task is restored; any world will do *)
  pr_exec_end : forall w w0 t o, I w -> I (endw w t o (cur (reset_task w0 t)));
  pr_mark : forall w t, I w -> I (mark_consistent w t);
  pr_push_err : forall w e, I w -> I (push_err w e);
  pr_queue : forall w q, I w -> I (set_queue w q);
  pr_goc_res : forall w r, I w -> I (get_or_create_resource_node w r)
}.
Hypothesis HP : Preserved.

Lemma queue_add_ok w t : I w -> I (queue_add w t).
Proof. intros Hw. unfold queue_add. destruct (memN t (queue w)); [exact Hw|apply (pr_queue HP); exact Hw]. Qed.

Theorem preserved_base : Base RC unit (fun g _ => g) (fun g _ => g) (fun _ => I) (fun _ w _ => I w) excused I.
Proof.
  constructor.
  - intros g w H. exact H.
  - intros g t w H. exact H.
  - intros g t w _ H. exact H.
  - intros g. apply (pr_rw HP).
  - intros g. apply (pr_reserve HP).
  - intros g w t c st _. apply (pr_update HP).
  - intros g. apply (pr_goc_task HP).
  - intros g. apply (pr_mark HP).
  - intros g w s e Hb. apply (pr_emit HP), calm_nonexec, (brackets_calm s e Hb).
  - intros g w s e _ He. apply (pr_emit HP), calm_nonexec, He.
  - intros g. apply (pr_exec_start HP).
  - intros g w t o c H. exact (pr_exec_end HP w (set_cur w c) t o H).
Qed.
Theorem preserved_base_bu : BaseBu unit (fun g _ => g) (fun _ => I) (fun _ w _ => I w).
Proof.
  constructor.
  - intros g. apply (pr_goc_res HP).
  - intros g w t c st x _ H. apply queue_add_ok, (pr_emit HP); [reflexivity|].
    apply (pr_emit HP w (ECheckReadResEnd t c st x) eq_refl) in H. destruct x; [exact H..|apply (pr_push_err HP); exact H].
  - intros g w t c st H. apply queue_add_ok, (pr_emit HP); [reflexivity|]. apply (pr_emit HP); [reflexivity|exact H].
  - intros g w t H _. apply (pr_queue HP). exact H.
  - intros g w t H _ _. exact H.
Qed.
Theorem preserved_base_td : BaseTd unit (fun g _ => g) (fun _ => I) (fun _ w _ => I w).
Proof.
  constructor.
  - intros g w d c st _ H. apply (pr_emit HP); [reflexivity|exact H].
  - intros g w r c st x _ _ H. apply (pr_emit HP w (ECheckResEnd r c st x) eq_refl) in H.
    destruct x; [exact H..|apply (pr_push_err HP); exact H].
  - intros g w t H _. exact H.
Qed.

Lemma exec_prog_ok req : (forall w t c, I w -> okO (req w t c)) -> forall p w, I w -> okO (exec_prog RC OC req p w).
Proof. intros Hreq. exact (exec_prog_g RC OC _ _ _ _ _ _ _ preserved_base req (fun _ => Hreq) tt). Qed.
Lemma execute_with_ok req w t : (forall w t c, I w -> okO (req w t c)) -> I w -> okO (execute_with RC OC P req w t).
Proof. intros Hreq. exact (execute_with_g RC OC P _ _ _ _ _ _ _ preserved_base req tt w t (fun _ => Hreq)). Qed.

Lemma require_with_ok mc w t c :
  (forall w t, I w -> okO (mc w t)) -> (forall w t, outIs t (mc w t)) -> I w -> okO (require_with OC mc w t c).
Proof. intros Hmc Ho. exact (require_with_g RC OC _ _ _ _ _ _ _ preserved_base mc (fun _ => Hmc) Ho tt w t c). Qed.

Lemma check_deps_ok mc :
  (forall w t, I w -> okO (mc w t)) -> (forall w t, outIs t (mc w t)) -> forall ds w, I w -> okO (check_deps RC OC mc ds w).
Proof.
  intros Hmc Ho ds w Hw. pose proof (check_deps_g RC OC _ _ _ _ _ _ _ preserved_base preserved_base_td mc (fun _ => Hmc) Ho tt ds w Hw) as H.
  destruct (check_deps RC OC mc ds w) as [[|] w'|k w'|]; [exact H|exact (H 0)|exact H|exact H].
Qed.

Lemma check_resource_td_ok w r c st : I w -> I (snd (check_resource_td RC w r c st)).
Proof.
  intros H. unfold check_resource_td. cbv zeta. destruct (rc_check _ _ _ _ _); cbn [snd];
    apply (pr_emit HP); try reflexivity; apply (pr_emit HP); try reflexivity; exact H.
Qed.

Theorem make_consistent_td_ok fuel : forall w t, I w -> okO (make_consistent_td RC OC P fuel w t).
Proof. exact (make_consistent_td_g RC OC P _ _ _ _ _ _ _ preserved_base preserved_base_td fuel tt). Qed.
Theorem require_td_ok fuel w t c : I w -> okO (require_td RC OC P fuel w t c).
Proof. exact (require_with_ok _ w t c (make_consistent_td_ok fuel) (td_out RC OC P fuel)). Qed.

Theorem bottom_up_ok fuel :
  (forall w t, I w -> okO (bu_execute_and_schedule RC OC P fuel w t)) /\
  (forall w t, I w -> okO (bu_make_consistent RC OC P fuel w t)) /\
  (forall w t, I w -> okO (bu_require_scheduled_now RC OC P fuel w t)).
Proof. destruct (bottom_up_g RC OC P _ _ _ _ _ _ _ preserved_base preserved_base_bu fuel) as [A [B C]]. exact (conj (A tt) (conj (B tt) (C tt))). Qed.
Theorem execute_scheduled_ok fuel : forall w, I w -> okO (execute_scheduled RC OC P fuel w).
Proof. exact (execute_scheduled_g RC OC P _ _ _ _ _ _ _ preserved_base preserved_base_bu fuel tt). Qed.




Variable always : ocid.
Hypothesis pr_set_cur_none : forall w, I w -> I (set_cur w None).

Theorem session_require_ok fuel w t : I w -> okO (session_require RC OC P always fuel w t).
Proof. exact (session_require_g RC OC P _ _ _ _ _ _ _ preserved_base preserved_base_td always fuel tt w t pr_set_cur_none). Qed.

Theorem session_bottom_up_ok fuel w ch : I w -> okO (session_bottom_up RC OC P fuel w ch).
Proof.
  intros Hw. apply (session_bottom_up_g RC OC P _ _ _ _ _ _ _ preserved_base preserved_base_bu fuel tt w ch pr_set_cur_none), (pr_queue HP). exact Hw.
Qed.

End InvE.

Section Kept.
Variable RC : rcid -> rchecker.
Variable OC : ocid -> ochecker.
Variable P : task -> prog.
Variable I : world -> Prop.
Variable X : world -> task -> Prop.

Definition okI {A} (m : outcome A) : Prop := match m with Done _ w | Abort _ w => I w | OutOfFuel => True end.

Record Kept : Prop := {
  k_same : forall w w', quiet w w' -> I w -> I w';
  k_calm : forall w e, calm e = true -> I w -> I (emit w e);
  k_start : forall w t, X w t -> I (startw w t);
  k_end : forall w t o c, I w -> I (endw w t o c);
  k_sched_res : forall w t c st x, x <> Consistent -> I w ->
    I (queue_add (emit (reported x (emit w (ECheckReadResEnd t c st x))) (ESchedTask t)) t);
  k_sched_req : forall w t c st, I w -> I (queue_add (emit (emit w (ECheckReqTaskEnd t c st true)) (ESchedTask t)) t);
  k_pop : forall w t, I w -> In t (queue w) -> X (popped w t) t;
  k_new : forall w t, I w -> get_task_output w t = None -> ~ In t (queue w) -> X w t
}.
Hypothesis K : Kept.

Lemma kept_goc_res w r : I w -> I (get_or_create_resource_node w r). Proof. exact (k_same K _ _ (quiet_goc w (rn r))). Qed.
Lemma kept_set_content w r v : I w -> I (set_content w r v). Proof. exact (k_same K _ _ (quiet_set_content w r v)). Qed.
Lemma kept_add_dependency w s d dp : I w -> I (snd (add_dependency w s d dp)). Proof. exact (k_same K _ _ (quiet_add_dependency w s d dp)). Qed.
Lemma kept_set_cur w c : I w -> I (set_cur w c). Proof. apply (k_same K). repeat split. Qed.
Lemma kept_quietO {A} w (m : outcome A) : quietO w m -> I w -> okI m.
Proof. destruct m; cbn; [apply (k_same K)|apply (k_same K)|trivial]. Qed.
Lemma kept_goc_task w t : I w -> I (get_or_create_task_node w t). Proof. exact (k_same K _ _ (quiet_goc w (tn t))). Qed.
Lemma kept_mark w t : I w -> I (mark_consistent w t). Proof. apply (k_same K). repeat split. Qed.
Lemma kept_reserve w t : I w -> okI (reserve_require_dependency w t). Proof. exact (kept_quietO w _ (quiet_reserve w t)). Qed.
Lemma kept_update w t c st : I w -> okI (update_require_dependency w t c st). Proof. exact (kept_quietO w _ (quiet_update w t c st)). Qed.

Lemma kept_lstep a b : lstep a b -> I a -> I b.
Proof.
  intros S Ha. destruct S as [a e He|a r|a r v|a t r dp ar b _ _ _ E _];
    [apply (k_calm K); [destruct e; try discriminate; reflexivity|exact Ha]|apply kept_goc_res; exact Ha|apply kept_set_content; exact Ha|].
  pose proof (kept_add_dependency a (tn t) (rn r) dp Ha) as H. rewrite E in H. exact H.
Qed.
Definition none (k : akind) : Prop := False.
Lemma okI_okG {A} (m : outcome A) : okI m <-> okG unit (fun _ => I) none I tt m.
Proof. destruct m; cbn; [tauto|split; [intros H; right; exact H|intros [[]|H]; exact H]|tauto]. Qed.

Lemma kept_rw {Y} (o : rwop Y) w : I w -> okI (run_rw RC o w).
Proof.
  intros Hw. apply okI_okG. revert Hw. apply (steps_rw RC unit (fun _ => I) none I tt (fun _ H => H) (fun a b Ha S => kept_lstep a b S Ha)).
  intros a b Ha F. right. destruct F as [a s r dp b _ _ E]. pose proof (kept_add_dependency a (tn s) (rn r) dp Ha) as H. rewrite E in H. exact H.
Qed.

Record KeptTd : Prop := {
  k_fail_task : forall w d c st t, I w -> X (emit w (ECheckTaskEnd d c st true)) t;
  k_fail_res : forall w r c st x t, x <> Consistent -> I w -> X (reported x (emit w (ECheckResEnd r c st x))) t;
  k_new_td : forall w t, I w -> get_task_output w t = None -> X w t;
  k_clear : forall w, I w -> I (set_queue w [])
}.

Theorem kept_base : Base RC unit (fun g _ => g) (fun g _ => g) (fun _ => I) (fun _ => X) none I.
Proof.
  constructor.
  - intros g w H. exact H.
  - intros g t w H. exact H.
  - intros g t w _ H. exact H.
  - intros [] Y o w Hw. apply okI_okG, kept_rw, Hw.
  - intros [] w t Hw. apply okI_okG, kept_reserve, Hw.
  - intros [] w t c st _ Hw. apply okI_okG, kept_update, Hw.
  - intros g. apply kept_goc_task.
  - intros g. apply kept_mark.
  - intros g w s e Hb. apply (k_calm K), (brackets_calm s e Hb).
  - intros g w s e _. apply (k_calm K).
  - intros g. apply (k_start K).
  - intros g. apply (k_end K).
Qed.
Theorem kept_base_bu : BaseBu unit (fun g _ => g) (fun _ => I) (fun _ => X).
Proof.
  constructor; intros g.
  - apply kept_goc_res.
  - apply (k_sched_res K).
  - apply (k_sched_req K).
  - apply (k_pop K).
  - apply (k_new K).
Qed.

Theorem kept_session_bottom_up fuel w ch : I (set_queue w []) -> okI (session_bottom_up RC OC P fuel w ch).
Proof. intros Hw. apply okI_okG, (session_bottom_up_g RC OC P _ _ _ _ _ _ _ kept_base kept_base_bu); [intros w0; apply kept_set_cur|exact Hw]. Qed.

Hypothesis KT : KeptTd.
Variable always : ocid.

Theorem kept_session_require fuel w t : I w -> okI (session_require RC OC P always fuel w t).
Proof.
  intros Hw. apply okI_okG, (session_require_g RC OC P _ _ _ _ _ _ _ kept_base); [|intros w0; apply kept_set_cur|exact Hw].
  constructor; intros g; [apply (k_fail_task KT)|apply (k_fail_res KT)|apply (k_new_td KT)].
Qed.

Theorem kept_run_sop fuel w o : I w -> I (snd (run_sop RC OC P always fuel w o)).
Proof.
  intros Hw. destruct o as [t|ch]; cbn [run_sop].
  - pose proof (kept_session_require fuel w t Hw) as H. destruct (session_require _ _ _ _ _ _ _); exact H || exact Hw.
  - pose proof (kept_session_bottom_up fuel w ch (k_clear KT w Hw)) as H. destruct (session_bottom_up _ _ _ _ _ _); exact H || exact Hw.
Qed.

Theorem kept_run_session fuel ops : forall w, I w -> I (snd (run_session RC OC P always fuel w ops)).
Proof.
  induction ops as [|o tl IH]; intros w Hw; cbn [run_session]; [exact Hw|].
  apply (kept_run_sop fuel w o) in Hw. destruct (run_sop RC OC P always fuel w o) as [[x|k|] w']; cbn [snd] in *; [|exact Hw|exact Hw].
  specialize (IH w' Hw). destruct (run_session RC OC P always fuel w' tl) as [rs w'']. exact IH.
Qed.

End Kept.
