(* C16, the graph layer: the only unordered containers whose ITERATION order reaches the result of a graph operation are
   the two change sets of reorder_nodes (HashSets filled by the two searches of add_edge).  Whatever order -- and whatever
   multiplicity -- their iteration yields, add_edge returns the same answer and the same graph, and so does every operation
   sequence.  The iteration order is modelled by two ARBITRARY functions that may depend on the whole graph and need only
   keep the membership of the set they are handed. *)
From Coq Require Import List NArith Bool Permutation.
From PieV Require Import Model.Dag Proofs.DagLib Proofs.DagWF Proofs.DagAddEdge Proofs.DagRun.
Import ListNotations.
Open Scope N_scope.

Section Det.
Context {ED : Type}.
Implicit Types g : dag ED.

Lemma sorted_set_independent (key : node -> N) l l' :
  (forall x, In x l <-> In x l') ->
  (forall x y, In x l -> In y l -> key x = key y -> x = y) ->
  sort_by key (nodupN l) = sort_by key (nodupN l').
Proof.
  intros M Inj. apply sort_by_order_independent.
  - apply NoDup_Permutation; [apply nodupN_NoDup|apply nodupN_NoDup|].
    intros x. rewrite !nodupN_In. apply M.
  - apply NoDup_map_key; [apply nodupN_NoDup|].
    intros x y X Y. apply Inj; apply nodupN_In; assumption.
Qed.

Theorem reorder_nodes_set_independent g cf cf' cb cb' :
  (forall x, In x cf <-> In x cf') -> (forall x, In x cb <-> In x cb') ->
  (forall x y, In x cf -> In y cf -> rank_of g x = rank_of g y -> x = y) ->
  (forall x y, In x cb -> In y cb -> rank_of g x = rank_of g y -> x = y) ->
  reorder_nodes g cf cb = reorder_nodes g cf' cb'.
Proof.
  intros Mf Mb If Ib. unfold reorder_nodes.
  rewrite (sorted_set_independent (rank_of g) cf cf' Mf If), (sorted_set_independent (rank_of g) cb cb' Mb Ib).
  reflexivity.
Qed.

Variables shf shb : dag ED -> list node -> list node.
Hypothesis shf_mem : forall g l x, In x (shf g l) <-> In x l.
Hypothesis shb_mem : forall g l x, In x (shb g l) <-> In x l.

(* add_edge with the two change sets iterated in the order the shuffles dictate: the text of Model.Dag.add_edge with the one
   call of reorder_nodes changed *)
Definition add_edge_sh (g : dag ED) (s d : node) (e : ED) : ares bool * dag ED :=
  if negb (live g s) || negb (live g d) then (AErr NodeMissing, g)
  else if N.eqb s d then (AErr CycleDetected, g)
  else if memN d (kids_of g s) then (AOk false, g)
  else
    let '(no_prev1, kids') := lhs_insert d (kids_of g s) in
    let g1 := upd_info g s (fun i => mkNinfo (rank i) kids' (pars i)) in
    let ub := rank_of g1 s in
    let '(no_prev, g2) :=
      if no_prev1
      then let '(np2, pars') := lhs_insert s (pars_of g1 d) in
           (np2, upd_info g1 d (fun i => mkNinfo (rank i) (kids i) pars'))
      else (false, g1) in
    let lb := rank_of g2 d in
    if negb no_prev then (AOk false, g2)
    else
      let g3 := insert_edata g2 s d e in
      if N.ltb lb ub then
        match dfs_forward (dfs_fuel g3) g3 ub [d] [] [] with
        | DfsFuel => (AFuel, g3)
        | DfsCycle =>
          let g4 := upd_info g3 s (fun i => mkNinfo (rank i) (removeN d (kids i)) (pars i)) in
          let g5 := upd_info g4 d (fun i => mkNinfo (rank i) (kids i) (removeN s (pars i))) in
          (AErr CycleDetected, remove_edata g5 s d)
        | DfsOk cf visited =>
          match dfs_backward (dfs_fuel g3) g3 lb [s] visited [] with
          | DfsOk cb _ => (AOk true, reorder_nodes g3 (shf g3 cf) (shb g3 cb))
          | _ => (AFuel, g3)
          end
        end
      else (AOk true, g3).

Lemma add_edge_sh_early g s d e :
  (live g s = false \/ live g d = false \/ s = d \/ In d (kids_of g s)) ->
  add_edge_sh g s d e = add_edge g s d e.
Proof.
  intros H. rewrite (add_edge_early_eq g s d e H). unfold add_edge_sh. apply if3_early. apply early_cond. exact H.
Qed.

Lemma add_edge_sh_unfold g s d e :
  WF g -> live g s = true -> live g d = true -> s <> d -> ~ In d (kids_of g s) ->
  add_edge_sh g s d e =
  let g3 := pre_graph g s d e in
  let ub := rank_of g s in let lb := rank_of g d in
  if N.ltb lb ub then
    match dfs_forward (dfs_fuel g3) g3 ub [d] [] [] with
    | DfsFuel => (AFuel, g3)
    | DfsCycle =>
      (AErr CycleDetected,
       remove_edata (upd_info (upd_info g3 s (fun i => mkNinfo (rank i) (removeN d (kids i)) (pars i)))
                              d (fun i => mkNinfo (rank i) (kids i) (removeN s (pars i)))) s d)
    | DfsOk cf visited =>
      match dfs_backward (dfs_fuel g3) g3 lb [s] visited [] with
      | DfsOk cb _ => (AOk true, reorder_nodes g3 (shf g3 cf) (shb g3 cb))
      | _ => (AFuel, g3)
      end
    end
  else (AOk true, g3).
Proof.
  intros W Ls Ld Hsd Hnk.
  match goal with |- _ = (let g3 := _ in let ub := _ in let lb := _ in @?B g3 ub lb) =>
    exact (add_edge_prefix g s d _ _ _ (fun g2 => (AOk false, g2)) (fun g2 => B (insert_edata g2 s d e)) W Ls Ld Hsd Hnk) end.
Qed.

(* the iteration order of the change sets does not reach the result: answer and graph are those of add_edge *)
Theorem add_edge_iteration_order_independent g s d e :
  WF g -> add_edge_sh g s d e = add_edge g s d e.
Proof.
  intros W.
  destruct (new_edge_dec g s d) as [[Ls [Ld [Hsd Hnk]]]|E]; [|apply add_edge_sh_early; exact E].
  rewrite (add_edge_sh_unfold g s d e W Ls Ld Hsd Hnk), (add_edge_unfold g s d e W Ls Ld Hsd Hnk). cbn zeta.
  destruct (N.ltb_spec (rank_of g d) (rank_of g s)) as [Hlt|Hge]; [|reflexivity].
  pose proof (searches_spec g s d e W Ls Ld Hsd Hnk Hlt) as SS. cbn zeta in SS.
  destruct (dfs_forward _ _ _ _ _ _) as [cf vis| |]; [|reflexivity|reflexivity].
  destruct SS as [-> [FI BI]].
  destruct (dfs_backward _ _ _ _ _ _) as [cb vis| |]; [|reflexivity|reflexivity].
  f_equal. symmetry.
  (* members of both sets are live nodes of g, on which the ranks are injective *)
  apply reorder_nodes_set_independent.
  - intros x. symmetry. apply shf_mem.
  - intros x. symmetry. apply shb_mem.
  - intros x y X Y. apply (sets_inj g s d e cf cb W Ls Ld Hsd FI BI); right; assumption.
  - intros x y X Y. apply (sets_inj g s d e cf cb W Ls Ld Hsd FI BI); left; assumption.
Qed.

Definition gstep_sh (g : dag ED) (o : gop ED) : dag ED :=
  match o with
  | GAddEdge s d e => snd (add_edge_sh g s d e)
  | _ => gstep g o
  end.
Definition grun_sh (ops : list (gop ED)) : dag ED := fold_left gstep_sh ops empty.

Theorem run_iteration_order_independent (ops : list (gop ED)) :
  forall g, WF g -> Fresh g -> fold_left gstep_sh ops g = fold_left gstep ops g.
Proof.
  induction ops as [|o tl IH]; intros g W Fr; cbn [fold_left]; [reflexivity|].
  assert (E : gstep_sh g o = gstep g o).
  { destruct o; try reflexivity. cbn [gstep_sh gstep]. rewrite add_edge_iteration_order_independent by exact W. reflexivity. }
  rewrite E.
  destruct (step_WF g o W Fr) as [W' F'].
  apply IH; assumption.
Qed.

Theorem grun_iteration_order_independent (ops : list (gop ED)) : grun_sh ops = grun ops.
Proof. unfold grun_sh, grun. apply run_iteration_order_independent; [apply WF_empty|intros n []]. Qed.

End Det.
