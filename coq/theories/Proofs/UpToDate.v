(* C03 in the static program class with reflexive checkers: if every recorded dependency of every task that has an output is
   consistent (AllValid: "all known tasks were last consistent"), then after any external changes and the session-opening
   bottom-up build that is told about every changed resource, AllValid holds again -- so requiring any known task afterwards
   executes nothing and returns the stored output.  The build carries Psi3 on top of OnceAll.Om: a recorded dependency is
   consistent unless its owner is queued or its target is executing or about to schedule its dependents (PhiT, DepExc; own,
   the popped task, is exempt until it starts); what an executing task has recorded is consistent, since its stamps are fresh
   and its targets never run again (PhiO); tasks executing for the first time have no dependents, so nothing needs scheduling
   after them, which is what the code relies on (ND). *)
From Coq Require Import List NArith ZArith Bool Lia.
From PieV Require Import Model.Dag Model.Build Proofs.Local Proofs.Steps Proofs.DagPath Proofs.StoreInv Proofs.ExecInv Proofs.ExecSession Proofs.Cert Proofs.Stable Proofs.NoAbort
  Proofs.Queue Proofs.NoReentry Proofs.NoBugAll Proofs.CertAll Proofs.NoAbortAll Proofs.HasOut
  Proofs.FullOut Proofs.Sim Proofs.Valid Proofs.Idem Proofs.OnceAll.
Import ListNotations.
Open Scope N_scope.

Section UD.
Variable gen : res -> option task.
Variable RC : rcid -> rchecker.
Variable OC : ocid -> ochecker.

Definition DepGood (w : world) (dp : dep) : Prop :=
  match dp with
  | DReserved => False
  | DRequire y c st => exists oy, get_task_output w y = Some oy /\ oc_check (OC c) oy st = true
  | DRead r c st | DWrite r c st => rc_check (RC c) (env w) r (get_content w r) st = Consistent
  end.
Definition wrote (w : world) (g : task) (r : res) : Prop := exists dpw, row w g (rn r) = Some dpw /\ is_write (Some dpw) = true.
Definition DepExc (e : option task) (w : world) (dp : dep) : Prop :=
  match dp with
  | DRequire y _ _ => opn w y \/ e = Some y
  | DRead r _ _ => exists g, (opn w g \/ e = Some g) /\ wrote w g r
  | _ => False
  end.
Definition PhiT (own e : option task) (w : world) : Prop :=
  forall x, own <> Some x -> get_task_output w x <> None -> forall d dp, row w x d = Some dp ->
    DepGood w dp \/ In x (queue w) \/ DepExc e w dp.
Definition PhiO (w : world) : Prop := forall t, opn w t -> forall d dp, row w t d = Some dp -> dp = DReserved \/ DepGood w dp.
Definition Psi (own e : option task) (w : world) : Prop := PhiT own e w /\ PhiO w.
Definition AllValid (w : world) : Prop := forall x, get_task_output w x <> None -> forall d dp, row w x d = Some dp -> DepGood w dp.

(* what the checkers look at stays the same *)
Definition keep (w w' : world) : Prop := (forall r, get_content w' r = get_content w r) /\ env w' = env w /\ outs w' = outs w.
Lemma keep_refl w : keep w w. Proof. split; [reflexivity|split; reflexivity]. Qed.
Lemma keep_trans a b c : keep a b -> keep b c -> keep a c.
Proof. intros [A1 [A2 A3]] [B1 [B2 B3]]. split; [intros r; rewrite B1; apply A1|split; congruence]. Qed.
Lemma keep_same w w' : rstate w' = rstate w -> env w' = env w -> outs w' = outs w -> keep w w'.
Proof. intros R E O. split; [intros r; unfold get_content; rewrite R; reflexivity|split; assumption]. Qed.
Lemma DepGood_keep w w' dp : keep w w' -> DepGood w dp -> DepGood w' dp.
Proof.
  intros [K1 [K2 K3]]. destruct dp as [|y c st|r c st|r c st]; cbn [DepGood]; [trivial| | |].
  - unfold get_task_output. rewrite K3. trivial.
  - rewrite K1, K2. trivial.
  - rewrite K1, K2. trivial.
Qed.
Lemma keep_sym w w' : keep w w' -> keep w' w.
Proof. intros [K1 [K2 K3]]. split; [intros r; symmetry; apply K1|split; congruence]. Qed.

Definition qk (w w' : world) : Prop :=
  geq w w' /\ keep w w' /\ opens (trace w') = opens (trace w) /\ (forall x, In x (queue w) -> In x (queue w')).
Lemma qk_refl w : qk w w. Proof. split; [intros n; apply EqN_refl|split; [apply keep_refl|split; [reflexivity|trivial]]]. Qed.
Lemma qk_trans a b c : qk a b -> qk b c -> qk a c.
Proof.
  intros [G1 [K1 [O1 Q1]]] [G2 [K2 [O2 Q2]]]. split; [eapply geq_trans; eassumption|]. split; [eapply keep_trans; eassumption|]. split; [congruence|intros x X; apply Q2, Q1, X].
Qed.
Lemma qk_same w w' : gr w' = gr w -> rstate w' = rstate w -> env w' = env w -> outs w' = outs w -> opens (trace w') = opens (trace w) ->
  (forall x, In x (queue w) -> In x (queue w')) -> qk w w'.
Proof. intros G R E O T Q. split; [apply geq_same; exact G|]. split; [apply keep_same; assumption|]. split; assumption. Qed.
Lemma qk_emit w e : ev3 e = true -> qk w (emit w e).
Proof. intros H. apply qk_same; try reflexivity; [apply opens_ev3; exact H|trivial]. Qed.
Lemma qk_goc w n : qk w (goc w n).
Proof. split; [apply geq_goc|]. destruct (goc_gr w n) as [g ->]. split; [apply keep_same; reflexivity|split; [reflexivity|trivial]]. Qed.
Lemma qk_goc_task w t : qk w (get_or_create_task_node w t). Proof. exact (qk_goc w (tn t)). Qed.
Lemma qk_goc_res w r : qk w (get_or_create_resource_node w r). Proof. exact (qk_goc w (rn r)). Qed.
Lemma qk_push_err w e : qk w (push_err w e). Proof. apply qk_same; try reflexivity. trivial. Qed.
Lemma qk_mark w t : qk w (mark_consistent w t). Proof. apply qk_same; try reflexivity. trivial. Qed.
Lemma qk_queue_add w t : qk w (queue_add w t).
Proof. unfold queue_add. destruct (memN _ _); [apply qk_refl|]. apply qk_same; try reflexivity. intros x X. cbn. apply in_or_app. left. exact X. Qed.

Lemma wrote_geq w w' g r : geq w w' -> wrote w g r -> wrote w' g r.
Proof. intros G [dp [R I]]. exists dp. split; [rewrite (geq_row w w' g _ G); exact R|exact I]. Qed.
Lemma DepExc_mono e w w' dp : opens (trace w') = opens (trace w) -> (forall g r, wrote w g r -> wrote w' g r) -> DepExc e w dp -> DepExc e w' dp.
Proof.
  intros O Wt. destruct dp as [|y c st|r c st|r c st]; cbn [DepExc]; try trivial; unfold opn; rewrite O; [trivial|].
  intros [g [A B]]. exists g. split; [exact A|apply Wt; exact B].
Qed.
Lemma DepExc_qk e w w' dp : qk w w' -> DepExc e w dp -> DepExc e w' dp.
Proof. intros [G [_ [O _]]]. apply DepExc_mono; [exact O|intros g r; apply wrote_geq; exact G]. Qed.
Lemma Psi_qk own e w w' : qk w w' -> Psi own e w -> Psi own e w'.
Proof.
  intros Hq [HT HO]. pose proof Hq as [G [K [O Q]]]. split.
  - intros x Hx Ox d dp R. rewrite (geq_row w w' x d G) in R. unfold get_task_output in Ox. rewrite (proj2 (proj2 K)) in Ox.
    destruct (HT x Hx Ox d dp R) as [A|[A|A]]; [left; eapply DepGood_keep; eassumption|right; left; apply Q; exact A|right; right; eapply DepExc_qk; eassumption].
  - intros t Ot d dp R. unfold opn in Ot. rewrite O in Ot. rewrite (geq_row w w' t d G) in R.
    destruct (HO t Ot d dp R) as [A|A]; [left; exact A|right; eapply DepGood_keep; eassumption].
Qed.

Lemma PhiT_weaken own e w : PhiT None e w -> PhiT own e w.
Proof. intros H x _. apply H. discriminate. Qed.
Lemma Psi_pop e w m : Psi None e w -> Psi (Some m) e (popped w m).
Proof.
  intros [HT HO]. split; [|exact HO]. intros x Hx Ox d dp R. change (row w x d = Some dp) in R. change (get_task_output w x <> None) in Ox.
  destruct (HT x ltac:(discriminate) Ox d dp R) as [A|[A|A]]; [left; exact A| |right; right; exact A].
  right. left. cbn. apply In_removeN_other'; [apply In_sort_queue; exact A|]. intros ->. apply Hx. reflexivity.
Qed.
End UD.

Section UT.
Variable gen : res -> option task.
Variable wck : rcid -> Prop.
Variable ord : task -> nat.
Variable RC : rcid -> rchecker.
Variable OC : ocid -> ochecker.
Variable P : task -> prog.
Variable sf : rcid -> res -> content -> Z.
Hypothesis HS : forall c env r v, rc_stamp (RC c) env r v = inl (sf c r v).
Hypothesis HWF : forall t, WFP gen wck t [] (P t).
Hypothesis HWO : forall t, WFO ord t (P t).
Hypothesis HRefl : forall c env r v, rc_check (RC c) env r v (sf c r v) = Consistent.
Hypothesis HReflO : forall c o, oc_check (OC c) o (oc_stamp (OC c) o) = true.

Notation K := (K RC OC P sf).
Notation Q := (Q gen ord).
Notation Om := (Om gen).
Notation B := (B gen ord RC OC P sf).
Notation DepGood := (DepGood RC OC).
Notation PhiT := (PhiT RC OC).
Notation PhiO := (PhiO RC OC).
Notation Psi := (Psi RC OC).
Notation AllValid := (AllValid RC OC).

Lemma no_self_edge w t : StoreOK w -> ~ In (tn t) (kids_of (gr w) (tn t)).
Proof. intros [W _] X. apply (WF_acyclic (gr w) (tn t) W). apply path1. exact X. Qed.

Lemma Psi_start w m : StoreOK w -> Om w -> P3 w m -> ~ opn w m -> Psi (Some m) None w -> Psi None None (startw w m).
Proof.
  intros HS0 [A [C D]] HP Hm [HT HO]. destruct (reset_task_facts w m HS0) as [R1 R2 _ R4 _ _ R7 R8 R9 R10].
  pose proof (opn_start w m) as Op.
  assert (GoodT : forall dp, (forall c st, dp <> DRequire m c st) -> DepGood w dp -> DepGood (startw w m) dp).
  { intros dp Hd G. destruct dp as [|y c st|r c st|r c st]; cbn [UpToDate.DepGood] in *; [exact G| |exact G|exact G].
    assert (Hy : y <> m) by (intros ->; eapply Hd; reflexivity).
    change (get_task_output (startw w m) y) with (get_task_output (reset_task w m) y). rewrite (R10 y Hy). exact G. }
  split.
  - intros x _ Ox d dp R. change (get_task_output (reset_task w m) x <> None) in Ox.
    assert (Hx : x <> m) by (intros ->; apply Ox; exact R9). rewrite (R10 x Hx) in Ox.
    assert (X : tn x <> tn m) by (intros E; apply tn_inj in E; contradiction).
    unfold row in R. change (gr (startw w m)) with (gr (reset_task w m)) in R. rewrite (R7 _ _ X) in R.
    destruct (HT x ltac:(congruence) Ox d dp R) as [G|[G|G]].
    + destruct dp as [|y c st|r c st|r c st]; try (left; apply GoodT; [intros; discriminate|exact G]).
      destruct (N.eq_dec y m) as [->|Hy]; [right; right; left; apply Op; left; reflexivity|left; apply GoodT; [intros c' st' E; inversion E; congruence|exact G]].
    + right. left. exact G.
    + right. right. destruct dp as [|y c st|r c st|r c st]; cbn [DepExc] in *; try contradiction.
      * destruct G as [G|G]; [left; apply Op; right; exact G|discriminate].
      * destruct G as [g [[G|G] Wg]]; [|discriminate]. exists g. split; [left; apply Op; right; exact G|].
        assert (Hg : g <> m) by (intros ->; contradiction). destruct Wg as [dpw [Rw Iw]]. exists dpw. split; [|exact Iw].
        unfold row in *. change (gr (startw w m)) with (gr (reset_task w m)). rewrite R7; [exact Rw|intros E; apply tn_inj in E; contradiction].
  - intros t Ot d dp R. apply Op in Ot. unfold row in R. change (gr (startw w m)) with (gr (reset_task w m)) in R.
    destruct (N.eq_dec t m) as [->|Ht]; [rewrite R8 in R; discriminate|]. destruct Ot as [->|Ot]; [contradiction|].
    rewrite R7 in R by (intros E; apply tn_inj in E; contradiction).
    destruct (HO t Ot d dp R) as [G|G]; [left; exact G|right]. apply GoodT; [|exact G].
    intros c st ->. destruct (proj1 (proj2 HS0) _ _ _ R) as [_ Dd]. cbn in Dd. subst d.
    apply (HP m (C t m Ot (or_introl (ex_intro _ c (ex_intro _ st R))))). left. reflexivity.
Qed.

Lemma Psi_end w t o c : StoreOK w -> Om w -> opn w t -> get_task_output w t = None -> OF w t -> Psi None None w -> Psi None (Some t) (endw w t o c).
Proof.
  intros HS0 [A [C D]] Ot Ho HF [HT HO].
  assert (Out : forall y, y <> t -> get_task_output (endw w t o c) y = get_task_output w y).
  { intros y Hy. exact (output_set_other _ t o y Hy). }
  assert (GoodT : forall dp, (forall c' st, dp <> DRequire t c' st) -> DepGood w dp -> DepGood (endw w t o c) dp).
  { intros dp Hd G. destruct dp as [|y c' st|r c' st|r c' st]; cbn [UpToDate.DepGood] in *; [exact G| |exact G|exact G].
    assert (Hy : y <> t) by (intros ->; eapply Hd; reflexivity). rewrite (Out y Hy). exact G. }
  split.
  - intros x _ Ox d dp R. change (row w x d = Some dp) in R. destruct (N.eq_dec x t) as [->|Hx].
    + left. destruct (HO t Ot d dp R) as [G|G]; [exfalso; subst dp; exact (HF d R)|]. apply GoodT; [|exact G].
      intros c' st ->. destruct (proj1 (proj2 HS0) _ _ _ R) as [_ Dd]. cbn in Dd. subst d. exact (no_self_edge w t HS0 (row_kid w t _ _ HS0 R)).
    + rewrite (Out x Hx) in Ox. destruct (HT x ltac:(discriminate) Ox d dp R) as [G|[G|G]].
      * left. apply GoodT; [|exact G]. intros c' st ->. cbn in G. destruct G as [oy [G _]]. rewrite Ho in G. discriminate.
      * right. left. exact G.
      * right. right. destruct dp as [|y c' st|r c' st|r c' st]; cbn [DepExc] in *; try contradiction.
        -- destruct G as [G|G]; [|discriminate]. destruct (N.eq_dec y t) as [->|Hy]; [right; reflexivity|left; apply opn_end; split; assumption].
        -- destruct G as [g [[G|G] Wg]]; [|discriminate]. exists g. split; [|exact Wg].
           destruct (N.eq_dec g t) as [->|Hg]; [right; reflexivity|left; apply opn_end; split; assumption].
  - intros t' Ot' d dp R. apply opn_end in Ot'. destruct Ot' as [Ot' Ht']. change (row w t' d = Some dp) in R.
    destruct (HO t' Ot' d dp R) as [G|G]; [left; exact G|right]. apply GoodT; [|exact G].
    intros c' st ->. destruct (proj1 (proj2 HS0) _ _ _ R) as [_ Dd]. cbn in Dd. subst d.
    pose proof (C t' t Ot' (or_introl (ex_intro _ c' (ex_intro _ st R)))) as Ct. exact (proj1 (A t t Ct (or_introl eq_refl)) Ot).
Qed.
(* the stamp that a read or write records is the stamp of what the resource holds afterwards, which a reflexive checker accepts *)
Lemma Psi_leaf {X} (o : rwop X) own e t w xv w1 : run_rw RC o w = Done xv w1 ->
  LeafStep gen ord RC OC P sf t w w1 (rn (rw_res o)) (rw_rec sf o (get_content w (rw_res o))) -> B (Some t) w -> cur w = Some t -> Om w ->
  ~ In (rn (rw_res o)) (kidsT w t) -> rw_class gen t (kidsT w t) o -> Psi own e w -> Psi own e w1.
Proof.
  intros Eq [B1 C1 LF [RK [RD RO]] Q3 Qu] HB0 Hc [A [C D]] Nr Hcl [HT HO].
  destruct (run_rw_done RC sf HS o w t xv w1 Hc Eq) as [_ [W1 [CK [EK _]]]].
  set (r := rw_res o) in *. set (dp := rw_rec sf o (get_content w r)) in *.
  assert (Rd : is_write (Some dp) = false -> get_content w1 r = get_content w r) by (destruct o; [intros _; exact W1|discriminate..]).
  assert (Wr : is_write (Some dp) = true -> gen r = Some t) by (destruct o; [discriminate|intros _; exact Hcl..]).
  assert (Gd : DepGood w1 dp) by (destruct o; cbn in *; rewrite W1, EK; apply HRefl).
  pose proof (B_S _ _ _ _ _ _ _ w HB0) as HS0. pose proof (proj1 (proj2 (proj2 HB0))) as Hq.
  pose proof (cur_opn gen ord RC OC P sf _ w t HB0 Hc) as Ot.
  assert (Ho : get_task_output w t = None) by (apply (cur_no_output (Some t) w t (proj1 HB0) Hc)).
  pose proof (q3_opens w w1 Q3) as Op.
  assert (Ou : outs w1 = outs w) by apply (lf_outs _ _ _ LF).
  assert (Rows : forall x d, x <> t -> row w1 x d = row w x d) by (intros x d Hx; apply (lf_eother _ _ _ LF); intros E; apply tn_inj in E; contradiction).
  assert (GoodT : forall dp', (forall c st, dp' <> DRead r c st) -> (forall c st, dp' <> DWrite r c st) -> DepGood w dp' -> DepGood w1 dp').
  { intros dp' H1 H2 G. destruct dp' as [|y c st|r' c st|r' c st]; cbn [UpToDate.DepGood] in *; [exact G| | |].
    - unfold get_task_output. rewrite Ou. exact G.
    - assert (r' <> r) by (intros ->; eapply H1; reflexivity). rewrite CK, EK by assumption. exact G.
    - assert (r' <> r) by (intros ->; eapply H2; reflexivity). rewrite CK, EK by assumption. exact G. }
  assert (GoodR : is_write (Some dp) = false -> forall dp', DepGood w dp' -> DepGood w1 dp').
  { intros Hr dp' G. destruct dp' as [|y c st|r' c st|r' c st]; cbn [UpToDate.DepGood] in *; [exact G| | |].
    - unfold get_task_output. rewrite Ou. exact G.
    - destruct (N.eq_dec r' r) as [->|Hne]; [rewrite (Rd Hr), EK; exact G|rewrite CK, EK by assumption; exact G].
    - destruct (N.eq_dec r' r) as [->|Hne]; [rewrite (Rd Hr), EK; exact G|rewrite CK, EK by assumption; exact G]. }
  assert (Wt : forall g r', wrote w g r' -> wrote w1 g r').
  { intros g r' [dpw [Rw Iw]]. exists dpw. split; [|exact Iw]. destruct (N.eq_dec g t) as [->|Hg]; [|rewrite Rows; assumption].
    rewrite RO; [exact Rw|]. intros E. apply Nr. apply rn_inj in E. subst r'. exact (row_kid w t _ _ HS0 Rw). }
  split.
  - intros x Hx Ox d dp' R. unfold get_task_output in Ox. rewrite Ou in Ox.
    assert (Hxt : x <> t) by (intros ->; apply Ox; exact Ho). rewrite (Rows x d Hxt) in R.
    destruct (HT x Hx Ox d dp' R) as [G|[G|G]].
    + destruct (is_write (Some dp)) eqn:Iw; [|left; apply GoodR; [reflexivity|exact G]].
      destruct dp' as [|y c st|r' c st|r' c st]; try (left; apply GoodT; [intros; discriminate|intros; discriminate|exact G]).
      * destruct (N.eq_dec r' r) as [->|Hne]; [|left; apply GoodT; [intros c' st' E; inversion E; congruence|intros; discriminate|exact G]].
        right. right. exists t. split; [left; unfold opn; rewrite Op; exact Ot|]. exists dp. split; [exact RD|exact Iw].
      * destruct (N.eq_dec r' r) as [->|Hne]; [|left; apply GoodT; [intros; discriminate|intros c' st' E; inversion E; congruence|exact G]].
        exfalso. destruct (proj1 (proj2 HS0) _ _ _ R) as [_ Dd]. cbn in Dd. subst d.
        pose proof (proj1 (proj2 (Hq x)) r _ R eq_refl) as Gx. rewrite (Wr eq_refl) in Gx. inversion Gx. congruence.
    + right. left. rewrite Qu. exact G.
    + right. right. exact (DepExc_mono e w w1 dp' Op Wt G).
  - intros t' Ot' d dp' R. unfold opn in Ot'. rewrite Op in Ot'. destruct (N.eq_dec t' t) as [->|Ht'].
    + destruct (N.eq_dec d (rn r)) as [->|Hd]; [rewrite RD in R; inversion R; subst dp'; right; exact Gd|].
      rewrite (RO d Hd) in R. destruct (HO t Ot' d dp' R) as [G|G]; [left; exact G|right].
      destruct (is_write (Some dp)) eqn:Iw; [|apply GoodR; [reflexivity|exact G]].
      apply GoodT; [| |exact G]; intros c st ->; destruct (proj1 (proj2 HS0) _ _ _ R) as [_ Dd]; cbn in Dd; subst d; apply Hd; reflexivity.
    + rewrite (Rows t' d Ht') in R. destruct (HO t' Ot' d dp' R) as [G|G]; [left; exact G|right].
      destruct (is_write (Some dp)) eqn:Iw; [|apply GoodR; [reflexivity|exact G]].
      apply GoodT; [| |exact G]; intros c st ->; destruct (proj1 (proj2 HS0) _ _ _ R) as [_ Dd]; cbn in Dd; subst d.
      * pose proof (C t' t Ot' (or_intror (ex_intro _ r (ex_intro _ _ (conj R (conj eq_refl (Wr eq_refl))))))) as Ct.
        exact (proj1 (A t t Ct (or_introl eq_refl)) Ot).
      * pose proof (proj1 (proj2 (Hq t')) r _ R eq_refl) as Gx. rewrite (Wr eq_refl) in Gx. inversion Gx. congruence.
Qed.

(* the executing task s sets the entry of its row for a required task x: the reservation (Psi_reserve), later the recorded
   stamp (Psi_update_mark) *)
Lemma Psi_own own e s x dp w w' : get_task_output w s = None -> keep w w' -> opens (trace w') = opens (trace w) ->
  (forall y, In y (queue w) -> In y (queue w')) -> (forall y d, y <> s -> row w' y d = row w y d) ->
  (forall d, d <> tn x -> row w' s d = row w s d) -> row w' s (tn x) = Some dp ->
  dp = DReserved \/ DepGood w' dp -> Psi own e w -> Psi own e w'.
Proof.
  intros Ho KP Op Qu Rows Own New Gd [HT HO].
  assert (Wt : forall g r, wrote w g r -> wrote w' g r).
  { intros g r [dpw [Rw Iw]]. exists dpw. split; [|exact Iw]. destruct (N.eq_dec g s) as [->|Hg]; [|rewrite Rows; assumption].
    rewrite Own; [exact Rw|]. intros E. symmetry in E. exact (tn_rn _ _ E). }
  split.
  - intros y Hy Oy d dp' R. unfold get_task_output in Oy. rewrite (proj2 (proj2 KP)) in Oy.
    assert (Hys : y <> s) by (intros ->; apply Oy; exact Ho). rewrite (Rows y d Hys) in R.
    destruct (HT y Hy Oy d dp' R) as [G|[G|G]]; [left; eapply DepGood_keep; eassumption|right; left; apply Qu; exact G|right; right; exact (DepExc_mono e w w' dp' Op Wt G)].
  - intros t Ot d dp' R. unfold opn in Ot. rewrite Op in Ot.
    assert (Old : row w t d = Some dp' -> dp' = DReserved \/ DepGood w' dp').
    { intros R'. destruct (HO t Ot d dp' R') as [G|G]; [left; exact G|right; eapply DepGood_keep; eassumption]. }
    destruct (N.eq_dec t s) as [->|Ht]; [destruct (N.eq_dec d (tn x)) as [->|Hd]|].
    + rewrite New in R. inversion R; subst dp'. exact Gd.
    + apply Old. rewrite <- (Own d Hd). exact R.
    + apply Old. rewrite <- (Rows t d Ht). exact R.
Qed.
Lemma Psi_reserve own e s x w2 w3 : get_task_output w2 s = None -> Reserved w2 s x w3 -> RowStep s w2 w3 (tn x) DReserved ->
  Psi own e w2 -> Psi own e w3.
Proof.
  intros Ho RS [_ [ER ED]]. destruct (rs_same _ _ _ _ RS) as [Qu [_ [Rs En]]].
  apply (Psi_own own e s x DReserved w2 w3 Ho); [apply keep_same; [exact Rs|exact En|apply (rs_outs _ _ _ _ RS)]|apply q3_opens, RS|rewrite Qu; trivial| |exact ED|exact ER|left; reflexivity].
  intros y d Hy. apply (rs_rows _ _ _ _ RS (tn y)). intros E. apply tn_inj in E. contradiction.
Qed.
Lemma Psi_update_mark own e s x c o w : get_task_output w s = None -> get_task_output w x = Some o ->
  Psi own e w -> Psi own e (mark_consistent (set_gr w (insert_edata (gr w) (tn s) (tn x) (DRequire x c (oc_stamp (OC c) o)))) x).
Proof.
  intros Ho Hx. destruct (update_rows w s x (DRequire x c (oc_stamp (OC c) o))) as [Ins [_ [New Own]]].
  apply (Psi_own own e s x (DRequire x c (oc_stamp (OC c) o)) w _ Ho); [apply keep_same; reflexivity|reflexivity|trivial| |exact Own|exact New|right; exists o; split; [exact Hx|apply HReflO]].
  intros y d Hy. apply (Ins (tn y)). intros E. apply tn_inj in E. contradiction.
Qed.
(* scheduling after the execution of t discharges the excuse "depends on t" (Psi_schedule_after) *)
Lemma sstep_qk w w' : sstep w w' -> qk w w'.
Proof. intros [a e He|a e|a t|a r]; [apply qk_emit; destruct e; try discriminate; reflexivity|apply qk_push_err|apply qk_queue_add|apply qk_goc_res]. Qed.
Lemma sched_qk w w' : chain sstep w w' -> qk w w'.
Proof. apply (chain_in sstep qk qk_refl qk_trans sstep_qk). Qed.
Lemma schedule_after_qk w t o : qk w (schedule_after RC OC w t o).
Proof. destruct (schedule_after_chain RC OC w t o) as [wm [C ->]]. eapply qk_trans; [apply sched_qk; exact C|apply qk_mark]. Qed.
Lemma schedule_tasks_affected_by_qk w r : qk w (schedule_tasks_affected_by RC w r).
Proof. apply sched_qk, schedule_tasks_affected_by_chain. Qed.

Lemma Psi_schedule_after w t o : StoreOK w -> get_task_output w t = Some o -> Psi None (Some t) w -> Psi None None (schedule_after RC OC w t o).
Proof.
  intros HS0 Ho HP. pose proof (schedule_after_qk w t o) as QK. pose proof (Psi_qk RC OC None (Some t) w _ QK HP) as [HT HO].
  set (w5 := schedule_after RC OC w t o) in *. destruct QK as [G [[K1 [K2 K3]] _]].
  split; [|exact HO]. intros x _ Ox d dp R.
  destruct (HT x ltac:(discriminate) Ox d dp R) as [Gd|[Gd|Gd]]; [left; exact Gd|right; left; exact Gd|].
  rewrite (geq_row w w5 x d G) in R. destruct (proj1 (proj2 HS0) _ _ _ R) as [_ Dd].
  destruct dp as [|y c st|r c st|r c st]; cbn [DepExc] in Gd; try contradiction.
  - destruct Gd as [Gd|Gd]; [right; right; left; exact Gd|]. inversion Gd; subst y. cbn in Dd. subst d.
    destruct (oc_check (OC c) o st) eqn:Ck; [left; exists o; split; [unfold get_task_output; rewrite K3; exact Ho|exact Ck]|right; left].
    apply (schedule_after_queue RC OC w t o x HS0). right. right. exists c, st. split; [exact R|exact Ck].
  - destruct Gd as [g [[Gd|Gd] Wg]]; [right; right; exists g; split; [left; exact Gd|exact Wg]|]. inversion Gd; subst g. cbn in Dd. subst d.
    destruct Wg as [dpw [Rw5 Iw]]. rewrite (geq_row w w5 t _ G) in Rw5.
    destruct (rc_check (RC c) (env w) r (get_content w r) st) eqn:Ck;
      [left; change (rc_check (RC c) (env w5) r (get_content w5 r) st = Consistent); rewrite K1, K2; exact Ck|right; left|right; left];
      (apply (schedule_after_queue RC OC w t o x HS0); right; left; exists r; split; [exact (written_of_row w t r dpw HS0 Rw5 Iw)|];
       exists c, st; split; [left; exact R|unfold rejects; rewrite Ck; discriminate]).
Qed.
Definition DepOn (dp : dep) (t : task) : Prop :=
  match dp with DRequire y _ _ => y = t | DRead r _ _ => gen r = Some t | _ => False end.
Definition NoDep (w : world) (t : task) : Prop :=
  forall x, get_task_output w x <> None -> forall d dp, row w x d = Some dp -> ~ DepOn dp t.
Definition ND (F : task -> Prop) (w : world) : Prop := forall t, F t -> opn w t /\ NoDep w t.
Definition Psi3 (own e : option task) (F : task -> Prop) (w : world) : Prop := Psi own e w /\ ND F w.

Lemma ND_step F w w' : (forall t, opn w t -> opn w' t) ->
  (forall x, get_task_output w' x <> None -> get_task_output w x <> None /\ forall d, row w' x d = row w x d) -> ND F w -> ND F w'.
Proof.
  intros Ho Hr H t Ft. destruct (H t Ft) as [Ot Nt]. split; [apply Ho; exact Ot|].
  intros x Ox d dp R. destruct (Hr x Ox) as [Ox' Rx]. rewrite Rx in R. exact (Nt x Ox' d dp R).
Qed.
Lemma ND_qk F w w' : qk w w' -> ND F w -> ND F w'.
Proof.
  intros [G [[_ [_ K3]] [O _]]]. apply ND_step; [intros t; unfold opn; rewrite O; trivial|].
  intros x Ox. unfold get_task_output in *. rewrite K3 in Ox. split; [exact Ox|intros d; apply (geq_row w w' x d G)].
Qed.
Lemma ND_pop F w q : ND F w -> ND F (set_queue w q).
Proof. apply ND_step; [trivial|intros x Ox; split; [exact Ox|reflexivity]]. Qed.
Lemma NoDep_start w m t : StoreOK w -> NoDep w t -> NoDep (startw w m) t.
Proof.
  intros HS0 Nt x Ox d dp R. destruct (reset_task_facts w m HS0) as [_ _ _ _ _ _ R7 _ R9 R10].
  change (get_task_output (reset_task w m) x <> None) in Ox. assert (Hx : x <> m) by (intros ->; apply Ox; exact R9). rewrite (R10 x Hx) in Ox.
  unfold row in R. change (gr (startw w m)) with (gr (reset_task w m)) in R. rewrite R7 in R by (intros E; apply tn_inj in E; contradiction).
  exact (Nt x Ox d dp R).
Qed.
Lemma ND_start F w m : StoreOK w -> ND F w -> ND F (startw w m).
Proof. intros HS0 H t Ft. destruct (H t Ft) as [Ot Nt]. split; [apply opn_start; right; exact Ot|exact (NoDep_start w m t HS0 Nt)]. Qed.
Lemma NoDep_new w m : StoreOK w -> V w -> HB w -> Q w -> get_task_output w m = None -> ~ opn w m -> NoDep w m.
Proof.
  intros HS0 HV Hh Hq Ho Hm x Ox d dp R Dn. destruct (proj1 (proj2 HS0) _ _ _ R) as [_ Dd].
  assert (E : ~ In (tn m) (kids_of (gr w) (tn x))) by (intros E; destruct (edge_out w x m HS0 HV Hh Ox E) as [Y|Y]; [exact (Y Ho)|exact (Hm Y)]).
  destruct dp as [|y c st|r c st|r c st]; cbn in Dn; try contradiction.
  - subst y. cbn in Dd. subst d. exact (E (row_kid w x _ _ HS0 R)).
  - cbn in Dd. subst d. destruct (proj2 (proj2 (Hq x)) r _ R eq_refl) as [G|[g [G Bf]]]; [congruence|]. rewrite Dn in G. inversion G; subst g.
    exact (E (before_in _ _ _ Bf)).
Qed.
Lemma ND_start_new F w m : StoreOK w -> V w -> HB w -> Q w -> get_task_output w m = None -> ~ opn w m -> ND F w ->
  ND (fun t => t = m \/ F t) (startw w m).
Proof.
  intros HS0 HV Hh Hq Ho Hm H t [->|Ft]; [|exact (ND_start F w m HS0 H t Ft)].
  split; [apply opn_start; left; reflexivity|exact (NoDep_start w m m HS0 (NoDep_new w m HS0 HV Hh Hq Ho Hm))].
Qed.
(* the end of an execution of m: the dependencies m recorded are on consistent tasks, none of which is executing *)
Lemma NoDep_end w m t o c : StoreOK w -> Om w -> opn w m -> opn w t -> NoDep w t -> NoDep (endw w m o c) t.
Proof.
  intros HS0 [A [C D]] Om0 Ot Nt x Ox d dp R Dn. change (row w x d = Some dp) in R.
  destruct (N.eq_dec x m) as [->|Hx].
  - assert (Ct : isC w t).
    { destruct (proj1 (proj2 HS0) _ _ _ R) as [_ Dd]. destruct dp as [|y c' st|r c' st|r c' st]; cbn in Dn, Dd; try contradiction; subst d; apply (C m t Om0).
      - subst y. left. exists c', st. exact R.
      - right. exists r, (DRead r c' st). split; [exact R|split; [reflexivity|exact Dn]]. }
    exact (proj1 (A t t Ct (or_introl eq_refl)) Ot).
  - unfold endw in Ox. rewrite output_set_other in Ox by exact Hx. exact (Nt x Ox d dp R Dn).
Qed.
Lemma ND_end F w m o c : StoreOK w -> Om w -> opn w m -> ~ F m -> ND F w -> ND F (endw w m o c).
Proof.
  intros HS0 HO Om0 Fm H t Ft. destruct (H t Ft) as [Ot Nt]. assert (Htm : t <> m) by (intros ->; contradiction).
  split; [apply opn_end; split; assumption|apply NoDep_end; assumption].
Qed.
Lemma PhiT_discharge w t : Q w -> NoDep w t -> PhiT None (Some t) w -> PhiT None None w.
Proof.
  intros Hq Nt HT x Hx Ox d dp R. destruct (HT x Hx Ox d dp R) as [G|[G|G]]; [left; exact G|right; left; exact G|right; right].
  destruct dp as [|y c st|r c st|r c st]; cbn [DepExc] in *; try contradiction.
  - destruct G as [G|G]; [left; exact G|]. exfalso. inversion G; subst y. exact (Nt x Ox d _ R eq_refl).
  - destruct G as [g [[G|G] Wg]]; [exists g; split; [left; exact G|exact Wg]|]. exfalso. inversion G; subst g.
    destruct Wg as [dpw [Rw Iw]]. exact (Nt x Ox d _ R (proj1 (proj2 (Hq t)) r dpw Rw Iw)).
Qed.

Lemma PhiT_AllValid (F : task -> Prop) w : Q w -> queue w = [] -> (forall t, opn w t -> F t) -> ND F w -> PhiT None None w -> AllValid w.
Proof.
  intros Hq Qe HF HN HT x Ox d dp R. destruct (HT x ltac:(discriminate) Ox d dp R) as [G|[G|G]]; [exact G|rewrite Qe in G; destruct G|exfalso].
  destruct dp as [|y c st|r c st|r c st]; cbn [DepExc] in G; try contradiction.
  - destruct G as [G|G]; [|discriminate]. exact (proj2 (HN y (HF y G)) x Ox d _ R eq_refl).
  - destruct G as [g [[G|G] [dpw [Rw Iw]]]]; [|discriminate]. exact (proj2 (HN g (HF g G)) x Ox d _ R (proj1 (proj2 (Hq g)) r dpw Rw Iw)).
Qed.

Lemma Psi3_qk own e F w w' : qk w w' -> Psi3 own e F w -> Psi3 own e F w'.
Proof. intros Hq [A0 B0]. split; [eapply Psi_qk; eassumption|eapply ND_qk; eassumption]. Qed.
Lemma ND_cur F s w w' : get_task_output w s = None -> outs w' = outs w -> opens (trace w') = opens (trace w) ->
  (forall x d, x <> s -> row w' x d = row w x d) -> ND F w -> ND F w'.
Proof.
  intros Ho Ou Op Rows. apply ND_step; [intros t; unfold opn; rewrite Op; trivial|].
  intros x Ox. unfold get_task_output in *. rewrite Ou in Ox. split; [exact Ox|]. intros d. apply Rows. intros ->. apply Ox. exact Ho.
Qed.
Lemma Psi3_reserve F s x w2 w3 : get_task_output w2 s = None -> Reserved w2 s x w3 -> RowStep s w2 w3 (tn x) DReserved ->
  Psi3 None None F w2 -> Psi3 None None F w3.
Proof.
  intros Ho2 RS RW P2. split; [apply (Psi_reserve None None s x w2 w3 Ho2 RS RW); apply P2|].
  apply (ND_cur F s w2 w3 Ho2 (rs_outs _ _ _ _ RS)); [apply q3_opens, RS| |apply P2].
  intros y d Hy. apply (rs_rows _ _ _ _ RS (tn y)). intros X. apply tn_inj in X. contradiction.
Qed.
Lemma Psi3_update own e (F : task -> Prop) s x c o w : get_task_output w s = None -> get_task_output w x = Some o ->
  Psi3 own e F w -> Psi3 own e F (set_gr w (insert_edata (gr w) (tn s) (tn x) (DRequire x c (oc_stamp (OC c) o)))).
Proof.
  intros Ho Hx [HP HN]. pose proof (Psi_update_mark own e s x c o w Ho Hx HP) as [HT HO]. split; [split|].
  - intros y Hy Oy d dp R. exact (HT y Hy Oy d dp R).
  - intros t Ot d dp R. exact (HO t Ot d dp R).
  - apply (ND_cur F s w); [exact Ho|reflexivity|reflexivity| |exact HN].
    intros y d Hy. apply (proj1 (update_rows w s x (DRequire x c (oc_stamp (OC c) o))) (tn y)). intros E. apply tn_inj in E. contradiction.
Qed.


Lemma Psi3_rw {X} (o : rwop X) F t w xv w1 : run_rw RC o w = Done xv w1 -> LeafStep gen ord RC OC P sf t w w1 (rn (rw_res o)) (rw_rec sf o (get_content w (rw_res o))) ->
  B (Some t) w -> cur w = Some t -> Om w -> ~ In (rn (rw_res o)) (kidsT w t) -> rw_class gen t (kidsT w t) o -> Psi3 None None F w -> Psi3 None None F w1.
Proof.
  intros Eq LS HB0 Hc HO Hx Hg [HP HN]. split; [exact (Psi_leaf o None None t w xv w1 Eq LS HB0 Hc HO Hx Hg HP)|].
  apply (ND_cur F t w w1); [apply (cur_no_output (Some t) w t (proj1 HB0) Hc)|apply (lf_outs _ _ _ (ls_leaf _ _ _ _ _ _ _ _ _ _ _ LS))| | |exact HN].
  - apply q3_opens, (ls_q3 _ _ _ _ _ _ _ _ _ _ _ LS).
  - intros x d Hx'. apply (lf_eother _ _ _ (ls_leaf _ _ _ _ _ _ _ _ _ _ _ LS)). intros E. apply tn_inj in E. contradiction.
Qed.

(* isnew: t had no output, so it joins F while it executes, and the excuse "depends on t" is dropped at the end of its execution *)
Lemma Psi3_start (isnew : bool) a F w t : B a w -> Om w -> P3 w t -> ~ opn w t -> (isnew = true -> get_task_output w t = None) ->
  Psi3 (if isnew then None else Some t) None F w -> Psi3 None None (fun x => (isnew = true /\ x = t) \/ F x) (startw w t).
Proof.
  intros HB0 HO HP Hnot Hnew [HPs HN]. pose proof (B_S gen ord RC OC P sf _ w HB0) as HS0.
  assert (HPs' : Psi (Some t) None w) by (destruct isnew; [split; [apply PhiT_weaken; apply HPs|apply HPs]|exact HPs]).
  split; [apply (Psi_start w t HS0 HO HP Hnot HPs')|]. intros x [[In0 ->]|Fx].
  - apply (ND_start_new F w t HS0 (B_V gen ord RC OC P sf _ w HB0) (proj2 (proj2 (proj2 HB0))) (proj1 (proj2 (proj2 HB0))) (Hnew In0) Hnot HN). left. reflexivity.
  - apply (ND_start F w t HS0 HN). exact Fx.
Qed.
Lemma Psi3_end (isnew : bool) F w t o c : B (Some t) w -> Om w -> opn w t -> OF w t -> ~ F t ->
  Psi3 None None (fun x => (isnew = true /\ x = t) \/ F x) w -> Psi3 None (if isnew then None else Some t) F (endw w t o c).
Proof.
  intros B3 O3 Ot3 F3 NFt [P3' N3]. pose proof (B_S gen ord RC OC P sf _ w B3) as HS0.
  pose proof (Psi_end w t o c HS0 O3 Ot3 (open_no_output gen ord RC OC P sf _ w t B3 Ot3) F3 P3') as P4.
  assert (N4 : ND F (endw w t o c)) by (apply (ND_end F w t o c HS0 O3 Ot3 NFt); intros x Fx; apply N3; right; exact Fx).
  destruct isnew; [|split; assumption]. split; [|exact N4]. split; [|apply P4].
  apply (PhiT_discharge (endw w t o c) t (Q_same gen ord w _ eq_refl (proj1 (proj2 (proj2 B3))))); [|apply P4].
  apply (NoDep_end w t t o c HS0 O3 Ot3 Ot3). apply (N3 t). left. split; reflexivity.
Qed.


Lemma Psi3_carried : CarriedBU gen ord RC OC P sf Psi3.
Proof.
  constructor; [constructor|..].
  - intros A o F t w xv w1. apply Psi3_rw.
  - intros F s x w w3. apply Psi3_reserve.
  - intros own e F w ev Hev. apply Psi3_qk, qk_emit. exact Hev.
  - intros F s x c o w. apply Psi3_update.
  - intros own e F w t. apply Psi3_qk, qk_mark.
  - intros isnew a F w t. apply Psi3_start.
  - intros isnew F w t o c. apply Psi3_end.
  - intros F w t o HS0 Ho [P1 N1]. split; [apply (Psi_schedule_after w t o HS0 Ho P1)|apply (ND_qk F w); [apply schedule_after_qk|exact N1]].
  - intros e F w m [P1 N1]. split; [apply Psi_pop; exact P1|apply ND_pop; exact N1].
Qed.


(* the initial scheduling of a build that is told about every changed resource: w is w0, a store in which all recorded
   dependencies were accepted, with other contents *)
Lemma init_PhiT w0 w ch : StoreOK w -> gr w = gr w0 -> outs w = outs w0 -> env w = env w0 ->
  (forall r, get_content w r <> get_content w0 r -> In r ch) -> AllValid w0 ->
  PhiT None None (fold_left (schedule_tasks_affected_by RC) ch w).
Proof.
  intros HS0 G0 O0 E0 Hch AV. set (w1 := fold_left (schedule_tasks_affected_by RC) ch w).
  assert (Q1 : qk w w1) by (apply sched_qk, chain_fold; intros; apply schedule_tasks_affected_by_chain).
  destruct (proj1 (proj2 Q1)) as [K1 [K2 K3]].
  intros x _ Ox d dp R. rewrite (geq_row w w1 x d (proj1 Q1)) in R. unfold get_task_output in Ox. rewrite K3, O0 in Ox.
  destruct (proj1 (proj2 HS0) _ _ _ R) as [_ Dd]. pose proof R as R0. unfold row in R0. rewrite G0 in R0. pose proof (AV x Ox d dp R0) as G.
  (* a dependency on a resource: its checker still accepts, or the content differs, r was reported and x is scheduled *)
  assert (RW : forall r c st, dp = DRead r c st \/ dp = DWrite r c st -> d = rn r -> rc_check (RC c) (env w0) r (get_content w0 r) st = Consistent ->
            rc_check (RC c) (env w1) r (get_content w1 r) st = Consistent \/ In x (queue w1)).
  { intros r c st Hd -> G'. rewrite K1, K2. destruct (rc_check (RC c) (env w) r (get_content w r) st) eqn:Ck; [left; reflexivity|right|right];
      (apply (initial_queue RC w ch x HS0); right; exists r; split; [apply Hch; intros Ec; rewrite Ec, E0 in Ck; congruence|]; exists c, st;
       split; [destruct Hd as [->| ->]; [left; exact R|right; split; [reflexivity|exact R]]|unfold rejects; rewrite Ck; discriminate]). }
  destruct dp as [|y c st|r c st|r c st]; cbn [UpToDate.DepGood dep_target_ok] in G, Dd |- *.
  - destruct G.
  - left. unfold get_task_output. rewrite K3, O0. exact G.
  - destruct (RW r c st (or_introl eq_refl) Dd G) as [Y|Y]; [left; exact Y|right; left; exact Y].
  - destruct (RW r c st (or_intror eq_refl) Dd G) as [Y|Y]; [left; exact Y|right; left; exact Y].
Qed.

Variable always : ocid.

Lemma run_history_app fuel h1 : forall w h2,
  snd (run_history RC OC P always fuel w (h1 ++ h2)) = snd (run_history RC OC P always fuel (snd (run_history RC OC P always fuel w h1)) h2).
Proof.
  induction h1 as [|s tl IH]; intros w h2; cbn [app run_history]; [reflexivity|].
  destruct (run_step RC OC P always fuel w s) as [r w']. specialize (IH w' h2).
  destruct (run_history RC OC P always fuel w' (tl ++ h2)) as [rs w'']. destruct (run_history RC OC P always fuel w' tl) as [rs1 w1]. cbn [snd] in *. exact IH.
Qed.

Lemma run_history_session fuel h ops w :
  snd (run_history RC OC P always fuel w (h ++ [HSession ops])) =
  snd (run_session RC OC P always fuel (new_session (snd (run_history RC OC P always fuel w h))) ops).
Proof. rewrite run_history_app. cbn [run_history run_step]. destruct (run_session RC OC P always fuel _ ops). reflexivity. Qed.

Definition edits_of (l : list (res * content)) : list step := map (fun e => HEdit (fst e) (snd e)) l.
Lemma edits_same fuel l : forall w, let w' := snd (run_history RC OC P always fuel w (edits_of l)) in
  gr w' = gr w /\ outs w' = outs w /\ env w' = env w.
Proof.
  induction l as [|[r v] tl IH]; intros w; cbn [edits_of map run_history]; [repeat split|].
  cbn [run_step fst snd]. specialize (IH (set_content w r v)). cbv zeta in IH. unfold edits_of in IH.
  destruct (run_history RC OC P always fuel (set_content w r v) (map (fun e => HEdit (fst e) (snd e)) tl)) as [rs w']. cbn [snd] in *.
  destruct IH as [A1 [A2 A3]]. split; [rewrite A1; destruct v; reflexivity|split; [rewrite A2; destruct v; reflexivity|rewrite A3; destruct v; reflexivity]].
Qed.

(* C03 (first half): all known tasks consistent, then external changes, then the bottom-up build that is told about every changed
   resource: every recorded dependency of every task with an output is consistent again *)
Theorem bottom_up_restores_validity fuel h edits ch :
  let wh := snd (run_history RC OC P always fuel init_world h) in
  let w1 := snd (run_history RC OC P always fuel wh (edits_of edits)) in
  AllValid wh -> (forall r, get_content w1 r <> get_content wh r -> In r ch) ->
  match session_bottom_up RC OC P fuel (new_session w1) ch with
  | Done _ w' => AllValid w' /\ StoreOK w' /\ Q w' /\ NoRes w' /\ K w'
  | Abort _ _ => False
  | OutOfFuel => True
  end.
Proof.
  intros wh w1 AV Hch.
  assert (SBw : SB gen ord RC OC P sf (new_session w1)) by (unfold w1, wh; rewrite <- run_history_app; apply (history_SB gen wck ord RC OC P sf HS HWF HWO)).
  destruct (edits_same fuel edits wh) as [G1 [O1 E1]]. fold w1 in G1, O1, E1.
  set (w := new_session w1) in *. pose proof SBw as [[VSw [Kw Qw]] Hhw].
  pose proof (bottom_up_new_session gen wck ord RC OC P sf HS HWF HWO _ Psi3_carried fuel w ch SBw eq_refl eq_refl) as Y. cbv zeta in Y.
  destruct (bottom_up_start gen ord RC OC P sf w ch VSw Kw Qw Hhw) as [L0 [Q01 [LV _]]].
  set (wf := fold_left (schedule_tasks_affected_by RC) ch (set_queue w [])) in *. set (w2 := emit (set_cur wf None) EBuildStart) in *.
  assert (PT : PhiT None None wf) by exact (init_PhiT wh (set_queue w []) ch (proj1 L0) G1 O1 E1 Hch AV).
  assert (POf : PhiO wf) by (intros t Ot; unfold opn in Ot; rewrite (lv_opens _ _ Q01) in Ot; destruct Ot).
  assert (U2 : Psi3 None None (fun _ => False) w2).
  { split; [apply (Psi_qk RC OC None None wf w2); [apply qk_same; trivial|exact (conj PT POf)]|intros t []]. }
  eapply holds_mono; [exact (Y U2)| |intros k w' _ []]. intros u w' _ [w3 [-> [B3 [O3 [_ [[[PT3 _] N3] Q3]]]]]].
  assert (Op3 : opens (trace w3) = []) by apply (proj1 (proj2 (proj1 (proj1 B3)))).
  split; [|split; [apply (B_S gen ord RC OC P sf _ w3 B3)|split; [apply (Q_same gen ord w3); [reflexivity|apply B3]|split; [apply (proj1 (B_V gen ord RC OC P sf _ w3 B3))|apply (geq_K RC OC P sf w3); [apply geq_same; reflexivity|reflexivity|apply B3]]]]].
  intros x Ox d dp R. apply (DepGood_keep RC OC w3); [apply keep_same; reflexivity|].
  apply (PhiT_AllValid _ w3 (proj1 (proj2 (proj2 B3))) Q3 ltac:(intros t Ot; unfold opn in Ot; rewrite Op3 in Ot; destruct Ot) N3 PT3 x Ox d dp R).
Qed.
Lemma alookup_in {V} (l : list (N * V)) k : alookup l k <> None <-> In k (map fst l).
Proof.
  induction l as [|[a v] tl IH]; cbn; [split; [intros X; contradiction X; reflexivity|intros []]|].
  destruct (N.eqb_spec a k) as [->|Hne]; [split; [intros _; left; reflexivity|intros _; discriminate]|].
  rewrite IH. split; [intros X; right; exact X|intros [X|X]; [contradiction|exact X]].
Qed.
Lemma AllValid_ValidX w : AllValid w -> ValidX RC OC (map fst (outs w)) w.
Proof.
  intros AV x Ix. apply alookup_in in Ix. change (get_task_output w x <> None) in Ix. split.
  - destruct (get_task_output w x) as [o|] eqn:E; [exists o; reflexivity|contradiction Ix; reflexivity].
  - intros d dp R. pose proof (AV x Ix d dp R) as G.
    destruct dp as [|y c st|r0 c st|r0 c st]; cbn [UpToDate.DepGood DepOKX] in *; [exact G| |exact G|exact G].
    destruct G as [oy [Oy Cy]]. split; [apply alookup_in; change (get_task_output w y <> None); rewrite Oy; discriminate|exists oy; split; assumption].
Qed.

(* C03: ... and then requiring any known task executes nothing and returns its stored output *)
Theorem bottom_up_leaves_tasks_up_to_date fuel h edits ch ops :
  let wh := snd (run_history RC OC P always fuel init_world h) in
  let w1 := snd (run_history RC OC P always fuel wh (edits_of edits)) in
  AllValid wh -> (forall r, get_content w1 r <> get_content wh r -> In r ch) -> roots_below ord fuel ops ->
  match session_bottom_up RC OC P fuel (new_session w1) ch with
  | Done _ w' =>
      (forall t, In t (roots ops) -> get_task_output w' t <> None) ->
      let r := run_session RC OC P always fuel (new_session w') ops in
      fst r = map (fun t => RDone (get_task_output w' t)) (roots ops) /\ execs (rev (trace (snd r))) = [] /\
      forall r0, get_content (snd r) r0 = get_content w' r0
  | Abort _ _ => False
  | OutOfFuel => True
  end.
Proof.
  intros wh w1 AV Hch RB. eapply holds_mono; [exact (bottom_up_restores_validity fuel h edits ch AV Hch)| |intros k w' _ []].
  intros u w' _ [AV' [HS' [Q' [NR' _]]]] HX r.
  set (X := map fst (outs w')).
  assert (VX : ValidX RC OC X (new_session w')) by exact (AllValid_ValidX w' AV').
  destruct (idem_session gen ord RC OC P always X fuel ops (new_session w') VX HS' ltac:(apply (Q_same gen ord w'); [reflexivity|exact Q']) RB
              ltac:(intros t It; apply alookup_in; apply HX; exact It)) as [Qt E2]. fold r in Qt, E2.
  split; [exact E2|]. split.
  - destruct (qt_seg _ _ Qt) as [seg [T Ex]]. rewrite T. cbn [new_session trace]. rewrite app_nil_r, rev_involutive. exact Ex.
  - intros r0. rewrite (qt_content _ _ Qt). reflexivity.
Qed.
(* C03, complete: ... and the outputs returned are those of a from-scratch build in the current state.  Needs, as C01, that an
   accepting checker shows the same view (HC, HOC) and that write checkers accept only the written value (HW). *)
Hypothesis HC : forall c env r v v', rc_check (RC c) env r v' (sf c r v) = Consistent -> rc_view (RC c) v' = rc_view (RC c) v.
Hypothesis HW : forall c env r v v', wck c -> rc_check (RC c) env r v' (sf c r v) = Consistent -> v' = v.
Hypothesis HOC : forall c o o', oc_check (OC c) o' (oc_stamp (OC c) o) = true -> oc_view (OC c) o' = oc_view (OC c) o.

Theorem bottom_up_then_require_equals_scratch fuel fuel0 h edits ch ops :
  let wh := snd (run_history RC OC P always fuel init_world h) in
  let w1 := snd (run_history RC OC P always fuel wh (edits_of edits)) in
  AllValid wh -> (forall r, get_content w1 r <> get_content wh r -> In r ch) -> roots_below ord fuel ops -> roots_below ord fuel0 ops ->
  match session_bottom_up RC OC P fuel (new_session w1) ch with
  | Done _ w' =>
      (forall t, In t (roots ops) -> get_task_output w' t <> None) ->
      let ra := run_session RC OC P always fuel (new_session w') ops in
      let rb := run_session RC OC P always fuel0 (new_session (fresh_of w')) ops in
      execs (rev (trace (snd ra))) = [] /\ fst ra = fst rb /\ Forall is_done (fst rb) /\ forall r, get_content (snd ra) r = get_content (snd rb) r
  | Abort _ _ => False
  | OutOfFuel => True
  end.
Proof.
  intros wh w1 AV Hch RB RB0. eapply holds_mono; [exact (bottom_up_restores_validity fuel h edits ch AV Hch)| |intros k w' _ []].
  intros u w' Eq [AV' [HS' [Q' [NR' K']]]] HX ra rb.
  pose proof (holds_done (bottom_up_leaves_tasks_up_to_date fuel h edits ch ops AV Hch RB) Eq HX) as Y. cbv zeta in Y. fold ra in Y. destruct Y as [E1 [E2 E3]].
  assert (Ja : ExecSession.J (new_session w')) by (split; [exact HS'|split; [exact NR'|intros t X; discriminate]]).
  destruct (fresh_start w') as [Jf [Ff S0]].
  assert (Qf : Q (new_session (fresh_of w'))) by (intros a; apply QR_empty; reflexivity).
  destruct (session_returns gen wck ord RC OC P sf HS HWF HWO always fuel0 ops (new_session (fresh_of w')) RB0 Jf Qf) as [DB _]. fold rb in DB.
  assert (DA : Forall is_done (fst ra)) by (rewrite E1; apply Forall_forall; intros x Ix; apply in_map_iff in Ix; destruct Ix as [t [<- _]]; eexists; reflexivity).
  destruct (sim_session gen wck RC OC P sf HS HWF HC HW HOC always fuel fuel0 ops (new_session w') (new_session (fresh_of w')) (roots_td ord fuel ops RB) Ja
              ltac:(apply (K_same RC OC P sf w'); [reflexivity|reflexivity|exact K']) Jf Ff S0 DA DB) as [E S1]. fold ra rb in E, S1.
  split; [exact E2|]. split; [exact E|]. split; [exact DB|]. intros r. apply (sim_content _ _ S1).
Qed.
(* the same in the SAME session, right after the build (the session's consistent set is the one the build left) *)
Theorem bottom_up_then_require_same_session fuel fuel0 h edits ch ops :
  let wh := snd (run_history RC OC P always fuel init_world h) in
  let w1 := snd (run_history RC OC P always fuel wh (edits_of edits)) in
  AllValid wh -> (forall r, get_content w1 r <> get_content wh r -> In r ch) -> roots_below ord fuel ops -> roots_below ord fuel0 ops ->
  match session_bottom_up RC OC P fuel (new_session w1) ch with
  | Done _ w' =>
      (forall t, In t (roots ops) -> get_task_output w' t <> None) ->
      let ra := run_session RC OC P always fuel w' ops in
      let rb := run_session RC OC P always fuel0 (new_session (fresh_of w')) ops in
      (exists seg, trace (snd ra) = rev seg ++ trace w' /\ execs seg = []) /\ fst ra = fst rb /\ Forall is_done (fst rb) /\
      forall r, get_content (snd ra) r = get_content (snd rb) r
  | Abort _ _ => False
  | OutOfFuel => True
  end.
Proof.
  intros wh w1 AV Hch RB RB0. eapply holds_mono; [exact (bottom_up_restores_validity fuel h edits ch AV Hch)| |intros k w' _ []].
  intros u w' Eq [AV' [HS' [Q' [NR' K']]]] HX ra rb.
  pose proof (holds_done (bottom_up_then_require_equals_scratch fuel fuel0 h edits ch ops AV Hch RB RB0) Eq HX) as Y.
  pose proof (holds_done (bottom_up_leaves_tasks_up_to_date fuel h edits ch ops AV Hch RB) Eq HX) as Z. cbv zeta in Y, Z. fold rb in Y.
  destruct Y as [_ [E [DB EC]]]. destruct Z as [Z1 [_ Z3]].
  set (X := map fst (outs w')).
  assert (VX : ValidX RC OC X w') by exact (AllValid_ValidX w' AV').
  destruct (idem_session gen ord RC OC P always X fuel ops w' VX HS' Q' RB ltac:(intros t It; apply alookup_in; apply HX; exact It)) as [Qt E2]. fold ra in Qt, E2.
  split; [apply (qt_seg _ _ Qt)|]. split; [rewrite E2, <- E; exact (eq_sym Z1)|]. split; [exact DB|].
  intros r. rewrite (qt_content _ _ Qt r), <- EC. symmetry. apply Z3.
Qed.
End UT.

(* The premise of the C03 theorems ("all known tasks were last consistent": AllValid) is an invariant of the histories a client
   produces when it (1) builds its tasks once, top-down, on an empty instance (TdValid.first_session_AllValid) and then (2) reacts
   to every batch of external changes with a bottom-up build that is told about every changed resource:  static class, reflexive
   checkers. *)
Section GH.
Variable gen : res -> option task.
Variable wck : rcid -> Prop.
Variable ord : task -> nat.
Variable RC : rcid -> rchecker.
Variable OC : ocid -> ochecker.
Variable P : task -> prog.
Variable sf : rcid -> res -> content -> Z.
Variable always : ocid.
Hypothesis HS : forall c env r v, rc_stamp (RC c) env r v = inl (sf c r v).
Hypothesis HWF : forall t, WFP gen wck t [] (P t).
Hypothesis HWO : forall t, WFO ord t (P t).
Hypothesis HRefl : forall c env r v, rc_check (RC c) env r v (sf c r v) = Consistent.
Hypothesis HReflO : forall c o, oc_check (OC c) o (oc_stamp (OC c) o) = true.

Theorem change_then_bottom_up_keeps_AllValid fuel h edits ch :
  let wh := snd (run_history RC OC P always fuel init_world h) in
  let w1 := snd (run_history RC OC P always fuel wh (edits_of edits)) in
  AllValid RC OC wh -> (forall r, get_content w1 r <> get_content wh r -> In r ch) ->
  (exists u w', session_bottom_up RC OC P fuel (new_session w1) ch = Done u w') ->
  AllValid RC OC (snd (run_history RC OC P always fuel init_world (h ++ edits_of edits ++ [HSession [SBottomUp ch]]))).
Proof.
  intros wh w1 AV Hch [u [w' E]]. rewrite app_assoc, run_history_session, run_history_app. fold wh w1. cbn [run_session run_sop]. rewrite E. cbn [snd].
  pose proof (bottom_up_restores_validity gen wck ord RC OC P sf HS HWF HWO HRefl HReflO always fuel h edits ch AV Hch) as X. fold wh w1 in X. rewrite E in X. apply X.
Qed.
(* a session that requires known tasks in a store where everything is consistent changes nothing the premise looks at *)
Theorem requires_of_known_tasks_keep_AllValid fuel h ops :
  let wh := snd (run_history RC OC P always fuel init_world h) in
  AllValid RC OC wh -> roots_below ord fuel ops -> (forall t, In t (roots ops) -> get_task_output wh t <> None) ->
  AllValid RC OC (snd (run_history RC OC P always fuel init_world (h ++ [HSession ops]))).
Proof.
  intros wh AV RB HX. rewrite run_history_session. fold wh.
  destruct (history_SB gen wck ord RC OC P sf HS HWF HWO always fuel h) as [[VSw [_ Qw]] _]. fold wh in VSw, Qw.
  set (X := map fst (outs wh)).
  assert (VX : ValidX RC OC X (new_session wh)) by exact (AllValid_ValidX RC OC wh AV).
  destruct (idem_session gen ord RC OC P always X fuel ops (new_session wh) VX (proj1 (proj1 (proj1 (proj1 VSw)))) Qw RB
              ltac:(intros t It; apply alookup_in; apply HX; exact It)) as [Qt _].
  destruct (run_session RC OC P always fuel (new_session wh) ops) as [rs v]. cbn [snd] in *.
  intros x Ox d dp R. unfold get_task_output in Ox. rewrite (qt_outs _ _ Qt) in Ox.
  rewrite (proj2 (qt_rows _ _ Qt x) d) in R. pose proof (AV x Ox d dp R) as G.
  destruct dp as [|y c st|r0 c st|r0 c st]; cbn [UpToDate.DepGood] in *; [exact G| | |].
  - unfold get_task_output. rewrite (qt_outs _ _ Qt). exact G.
  - rewrite (qt_content _ _ Qt), (qt_env _ _ Qt). exact G.
  - rewrite (qt_content _ _ Qt), (qt_env _ _ Qt). exact G.
Qed.

(* C03 with "known to the Pie instance" read literally: a task is known when it has a node in the dependency store.  In the
   static class every such task has an output (FullOut.v), so the premise of bottom_up_leaves_tasks_up_to_date
   ("the required tasks have an output") is the same as "the required tasks are known". *)
Theorem bottom_up_leaves_known_tasks_up_to_date fuel h edits ch ops :
  let wh := snd (run_history RC OC P always fuel init_world h) in
  let w1 := snd (run_history RC OC P always fuel wh (edits_of edits)) in
  AllValid RC OC wh -> (forall r, get_content w1 r <> get_content wh r -> In r ch) -> roots_below ord fuel ops ->
  match session_bottom_up RC OC P fuel (new_session w1) ch with
  | Done _ w' =>
      (forall t, In t (roots ops) -> live (gr w') (tn t) = true) ->
      let r := run_session RC OC P always fuel (new_session w') ops in
      fst r = map (fun t => RDone (get_task_output w' t)) (roots ops) /\ execs (rev (trace (snd r))) = [] /\
      forall r0, get_content (snd r) r0 = get_content w' r0
  | Abort _ _ => False
  | OutOfFuel => True
  end.
Proof.
  intros wh w1 AV Hch RB.
  eapply holds_mono; [exact (bottom_up_leaves_tasks_up_to_date gen wck ord RC OC P sf HS HWF HWO HRefl HReflO always fuel h edits ch ops AV Hch RB)| |intros k w' _ []].
  intros u w' E X HK. apply X. intros t It.
  pose proof (static_class_every_known_task_has_an_output gen wck ord RC OC P sf always HS HWF HWO fuel (h ++ edits_of edits ++ [HSession [SBottomUp ch]])) as F.
  cbv zeta in F. rewrite app_assoc, (run_history_session RC OC P always), (run_history_app RC OC P always) in F. fold wh w1 in F.
  cbn [run_session run_sop] in F. rewrite E in F. cbn [snd] in F.
  apply F. apply HK. exact It.
Qed.
End GH.
