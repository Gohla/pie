(* C07 for every session (top-down, bottom-up, mixed; completed or aborted): no task starts executing while it is executing;
   "cyclic requirements are detected instead of recursing" holds in the bottom-up context too, where the execution stack is
   not a chain of require edges.  The anchor argument: an anchor a (the task in progress: executing, or being validated) and
   its ancestors in the dependency graph are protected -- their adjacency only grows, none of them is started -- because
   every task that is started is reached from a (through the reserved require edge, recorded edges, or the transitive
   dependency that selected it from the queue) and the graph is acyclic; every open execution is a or an ancestor of a. *)
From Coq Require Import List NArith Bool.
From PieV Require Import Model.Dag Model.Build Proofs.DagWF Proofs.DagPath Proofs.DagLib Proofs.StoreInv Proofs.Effects
  Proofs.Steps Proofs.Local Proofs.ExecInv Proofs.NoBug4All Proofs.InvE Proofs.PopOrder.
Import ListNotations.
Open Scope N_scope.

(* open executions of a newest-first stream *)
Fixpoint opens (tr : list event) : list task :=
  match tr with
  | [] => []
  | EExecStart t :: r => t :: opens r
  | EExecEnd t _ :: r => removeN t (opens r)
  | _ :: r => opens r
  end.
Fixpoint NN (tr : list event) : Prop :=
  match tr with
  | [] => True
  | EExecStart t :: r => ~ In t (opens r) /\ NN r
  | _ :: r => NN r
  end.

Definition ev3 (e : event) : bool := match e with EExecStart _ | EExecEnd _ _ => false | _ => true end.
Lemma ev3_nonexec e : ev3 e = nonexec e. Proof. reflexivity. Qed.
Lemma opens_ev3 e r : ev3 e = true -> opens (e :: r) = opens r. Proof. destruct e; cbn; congruence. Qed.
Lemma NN_ev3 e r : ev3 e = true -> (NN (e :: r) <-> NN r). Proof. destruct e; cbn; try congruence; tauto. Qed.
Lemma opens_app3 s r : Forall (fun e => ev3 e = true) s -> opens (s ++ r) = opens r.
Proof. induction 1 as [|e s He _ IH]; cbn [app]; [reflexivity|rewrite (opens_ev3 e _ He); exact IH]. Qed.
Lemma NN_app3 s r : Forall (fun e => ev3 e = true) s -> NN r -> NN (s ++ r).
Proof. induction 1 as [|e s He _ IH]; cbn [app]; intros H; [exact H|apply (NN_ev3 e _ He); apply IH; exact H]. Qed.

Definition Anc (g : dag dep) (c : task) (n : node) : Prop := n = tn c \/ path g n (tn c).
Definition Frame (c : task) (w w' : world) : Prop :=
  forall n, Anc (gr w) c n -> forall x, In x (kids_of (gr w) n) -> In x (kids_of (gr w') n).
Definition FrameO (a : option task) (w w' : world) : Prop := match a with None => True | Some c => Frame c w w' end.

Lemma path_pres (g g' : dag dep) v :
  (forall n, path g n v -> forall x, In x (kids_of g n) -> In x (kids_of g' n)) -> forall u, path g u v -> path g' u v.
Proof.
  intros H u Pth. induction Pth as [u v X|u y v X Pth IH].
  - apply path1. apply (H u); [apply path1; exact X|exact X].
  - eapply pathS; [apply (H u); [eapply pathS; eassumption|exact X]|]. apply IH. exact H.
Qed.
Lemma anc_pres c w w' n : Frame c w w' -> Anc (gr w) c n -> Anc (gr w') c n.
Proof. intros F [->|Pth]; [left; reflexivity|right]. apply (path_pres (gr w)); [intros m Hm; apply F; right; exact Hm|exact Pth]. Qed.
Lemma Frame_refl c w : Frame c w w. Proof. intros n _ x X. exact X. Qed.
Lemma Frame_trans c w1 w2 w3 : Frame c w1 w2 -> Frame c w2 w3 -> Frame c w1 w3.
Proof. intros F1 F2 n A x X. apply F2; [eapply anc_pres; eassumption|apply F1; assumption]. Qed.
Lemma FrameO_refl a w : FrameO a w w. Proof. destruct a; [apply Frame_refl|exact Logic.I]. Qed.
Lemma FrameO_trans a w1 w2 w3 : FrameO a w1 w2 -> FrameO a w2 w3 -> FrameO a w1 w3.
Proof. destruct a; [apply Frame_trans|trivial]. Qed.
Definition kgrow (w w' : world) : Prop := forall n x, In x (kids_of (gr w) n) -> In x (kids_of (gr w') n).
Lemma kgrow_FrameO a w w' : kgrow w w' -> FrameO a w w'.
Proof. intros K. destruct a; [intros n _ x X; apply K; exact X|exact Logic.I]. Qed.
Lemma anc_path (g : dag dep) c t n : path g (tn c) (tn t) -> Anc g c n -> path g n (tn t).
Proof. intros R [->|A]; [exact R|eapply path_trans; eassumption]. Qed.
(* a stronger anchor t (reached from c) protects more *)
Lemma Frame_weaken c t w w' : path (gr w) (tn c) (tn t) -> Frame t w w' -> Frame c w w'.
Proof. intros Pth F n A x X. apply F; [|exact X]. right. eapply anc_path; eassumption. Qed.
Definition reach (a : option task) (w : world) (t : task) : Prop := forall c, a = Some c -> path (gr w) (tn c) (tn t).
Lemma FrameO_weaken a t w w' : reach a w t -> Frame t w w' -> FrameO a w w'.
Proof. intros R F. destruct a as [c|]; [eapply Frame_weaken; [apply R; reflexivity|exact F]|exact Logic.I]. Qed.
Lemma reach_not_anc a w m : StoreOK w -> reach a w m -> forall c, a = Some c -> ~ Anc (gr w) c (tn m).
Proof. intros [W _] R c Hc A. exact (WF_acyclic (gr w) (tn m) W (anc_path _ c m _ (R c Hc) A)). Qed.

Definition OI (a : option task) (w : world) : Prop :=
  match a with
  | None => opens (trace w) = []
  | Some c => forall x, In x (opens (trace w)) -> Anc (gr w) c (tn x)
  end.
Definition Pre (a : option task) (w : world) : Prop := L w /\ OI a w /\ NN (trace w).

Definition okN {A} (a : option task) (w : world) (m : outcome A) : Prop :=
  match m with
  | Done _ w' => cur w' = cur w /\ FrameO a w w' /\ opens (trace w') = opens (trace w) /\ NN (trace w')
  | Abort _ w' => NN (trace w')
  | OutOfFuel => True
  end.

Lemma OI_pres a w w' : OI a w -> FrameO a w w' -> opens (trace w') = opens (trace w) -> OI a w'.
Proof.
  destruct a as [c|]; cbn; intros H F O.
  - intros x X. rewrite O in X. eapply anc_pres; [exact F|apply H; exact X].
  - rewrite O. exact H.
Qed.
Lemma OI_strengthen a t w : OI a w -> reach a w t -> OI (Some t) w.
Proof.
  intros H R. destruct a as [c|]; cbn in *.
  - intros x X. right. exact (anc_path _ c t _ (R c eq_refl) (H x X)).
  - intros x X. rewrite H in X. destruct X.
Qed.

Definition kept (a : option task) (w w1 : world) : Prop :=
  cur w1 = cur w /\ mono w w1 /\ FrameO a w w1 /\ opens (trace w1) = opens (trace w).
Lemma step_N {A} a w (m : outcome A) x w1 : Pre a w -> okR w m -> okN a w m -> m = Done x w1 -> Pre a w1 /\ kept a w w1.
Proof.
  intros [HL [HO HN]] R N ->. destruct R as [L1 M1]. destruct N as [C1 [F1 [O1 N1]]].
  split; [split; [exact L1|split; [eapply OI_pres; eassumption|exact N1]]|]. split; [exact C1|split; [exact M1|split; [exact F1|exact O1]]].
Qed.
Lemma okN_after {A} a w w1 (m : outcome A) : cur w1 = cur w -> FrameO a w w1 -> opens (trace w1) = opens (trace w) -> okN a w1 m -> okN a w m.
Proof.
  intros C1 F1 O1 Hm. destruct m as [y w2|k w2|]; cbn in *; [|exact Hm|exact Logic.I]. destruct Hm as [C2 [F2 [O2 N2]]].
  split; [congruence|]. split; [eapply FrameO_trans; eassumption|]. split; [congruence|exact N2].
Qed.
Lemma bind_N {A B} a w (m : outcome A) (f : A -> world -> outcome B) :
  Pre a w -> okR w m -> okN a w m ->
  (forall x w1, m = Done x w1 -> Pre a w1 -> cur w1 = cur w -> mono w w1 -> FrameO a w w1 -> okN a w1 (f x w1)) -> okN a w (bind m f).
Proof.
  intros Hw R N F. destruct m as [x w1|k w1|]; cbn [bind]; [|exact N|exact Logic.I].
  destruct (step_N a w _ x w1 Hw R N eq_refl) as [P1 [C1 [M1 [F1 O1]]]]. apply (okN_after a w w1); try assumption. apply F; trivial.
Qed.

Definition q3 (w w' : world) : Prop :=
  (exists s, trace w' = s ++ trace w /\ Forall (fun e => ev3 e = true) s) /\ kgrow w w' /\ cur w' = cur w.
Lemma q3_refl w : q3 w w.
Proof. split; [exists []; split; [reflexivity|constructor]|split; [intros n x X; exact X|reflexivity]]. Qed.
Lemma q3_opens w w' : q3 w w' -> opens (trace w') = opens (trace w).
Proof. intros [[s [T F]] _]. rewrite T. apply opens_app3. exact F. Qed.
Lemma q3_trans a b c : q3 a b -> q3 b c -> q3 a c.
Proof.
  intros [[s1 [T1 F1]] [K1 C1]] [[s2 [T2 F2]] [K2 C2]]. split; [|split; [intros n x X; apply K2, K1, X|congruence]].
  exists (s2 ++ s1). split; [rewrite T2, T1, app_assoc; reflexivity|apply Forall_app; split; assumption].
Qed.
Lemma q3_same w w' : trace w' = trace w -> gr w' = gr w -> cur w' = cur w -> q3 w w'.
Proof. intros T G C. split; [exists []; split; [exact T|constructor]|split; [intros n x X; rewrite G; exact X|exact C]]. Qed.
Lemma q3_emit w e : ev3 e = true -> q3 w (emit w e).
Proof. intros H. split; [exists [e]; split; [reflexivity|constructor; [exact H|constructor]]|split; [intros n x X; exact X|reflexivity]]. Qed.
Lemma q3_okN {A} a w w' (x : A) : q3 w w' -> NN (trace w) -> okN a w (Done x w').
Proof.
  intros [[s [T F]] [K C]] HN. cbn. split; [exact C|]. split; [apply kgrow_FrameO; exact K|].
  split; [rewrite T; apply opens_app3; exact F|rewrite T; apply NN_app3; assumption].
Qed.
Lemma q3_okN_abort {A} a w w' k : q3 w w' -> NN (trace w) -> okN a w (@Abort A k w').
Proof. intros [[s [T F]] _] HN. cbn. rewrite T. apply NN_app3; assumption. Qed.
Lemma q3_Pre a w w' : q3 w w' -> L w' -> Pre a w -> Pre a w'.
Proof.
  intros [[s [T F]] [K C]] L' [_ [HO HN]]. split; [exact L'|]. split.
  - eapply OI_pres; [exact HO|apply kgrow_FrameO; exact K|rewrite T; apply opens_app3; exact F].
  - rewrite T. apply NN_app3; assumption.
Qed.
Definition q3O {A} (w : world) (m : outcome A) : Prop := match m with Done _ w' | Abort _ w' => q3 w w' | OutOfFuel => True end.
Lemma q3O_okN {A} a w (m : outcome A) : q3O w m -> NN (trace w) -> okN a w m.
Proof. destruct m; cbn [q3O]; intros Q H; [eapply q3_okN; eassumption|eapply q3_okN_abort; eassumption|exact Logic.I]. Qed.

Lemma q3_goc w n : q3 w (goc w n).
Proof.
  destruct (goc_spec w n) as [g [-> [K _]]]. split; [exists []; split; [reflexivity|constructor]|split; [|reflexivity]].
  intros m x X. cbn. rewrite K. exact X.
Qed.
Lemma q3_goc_task w t : q3 w (get_or_create_task_node w t). Proof. exact (q3_goc w (tn t)). Qed.
Lemma q3_goc_res w r : q3 w (get_or_create_resource_node w r). Proof. exact (q3_goc w (rn r)). Qed.
Lemma q3_add_dependency w s d dp : WF (gr w) -> q3 w (snd (add_dependency w s d dp)).
Proof.
  intros W. destruct (add_dependency_grows w s d dp W) as [G1 [G2 _]]. destruct (add_dependency_gr w s d dp) as [g Eg]. rewrite Eg in *.
  split; [exists []; split; [reflexivity|constructor]|split; [|reflexivity]].
  intros n x X. destruct (N.eq_dec n s) as [->|Hn]; [apply G2; exact X|rewrite (G1 n Hn); exact X].
Qed.

Section NR.
Variable RC : rcid -> rchecker.
Variable OC : ocid -> ochecker.
Variable P : task -> prog.

Lemma lstep_q3 w w' : StoreOK w -> lstep w w' -> q3 w w'.
Proof.
  intros H S. destruct S as [a e He|a r|a r v|a t r dp ar b _ _ _ E _].
  - apply q3_emit. destruct e; try discriminate; reflexivity.
  - apply q3_goc.
  - apply q3_same; destruct v; reflexivity.
  - replace b with (snd (add_dependency a (tn t) (rn r) dp)) by (rewrite E; reflexivity). apply q3_add_dependency. apply H.
Qed.
Lemma rw_q3 {X} (o : rwop X) w : L w -> q3O w (run_rw RC o w).
Proof. intros HL. pose proof (rw_rel RC q3 o w q3_refl q3_trans lstep_q3 HL) as Y. destruct (run_rw RC o w); exact Y. Qed.

Lemma reserve_q3 w t : L w -> q3O w (reserve_require_dependency w t).
Proof.
  intros HL. unfold reserve_require_dependency. destruct (cur w) as [s|]; [|apply q3_refl].
  pose proof (q3_add_dependency w (tn s) (tn t) DReserved (proj1 (proj1 HL))) as Q. destruct (add_dependency _ _ _ _) as [[| |] w']; exact Q.
Qed.
Lemma update_q3 w t c st : q3O w (update_require_dependency w t c st).
Proof.
  unfold update_require_dependency. destruct (cur w) as [s|]; [|apply q3_refl].
  destruct (get_edata _ _ _); [|apply q3_refl]. cbn. split; [exists []; split; [reflexivity|constructor]|split; [intros n x X; exact X|reflexivity]].
Qed.

(* a require is made by the executing task, so its anchor is cur w; make-consistent is also entered from the queue and from
   check_deps, under whatever anchor a the caller protects, with t reached from a *)
Definition NREQ (req : world -> task -> ocid -> outcome Z) : Prop :=
  (forall w t c, L w -> okR w (req w t c)) /\ (forall w t c, Pre (cur w) w -> okN (cur w) w (req w t c)).
Definition NMC (mc : world -> task -> outcome Z) : Prop :=
  (forall w t, L w -> live (gr w) (tn t) = true -> okR w (mc w t)) /\
  (forall a w t, Pre a w -> live (gr w) (tn t) = true -> reach a w t -> okN a w (mc w t)).

Lemma exec_prog_N req : NREQ req -> forall p w, Pre (cur w) w -> okN (cur w) w (exec_prog RC OC req p w).
Proof.
  intros [HreqR HreqN]. induction p as [o| |t c k IH|X o k IH] using prog_rw_ind; intros w Hw.
  - apply q3_okN; [apply q3_refl|apply Hw].
  - apply Hw.
  - apply bind_N; [exact Hw|apply HreqR; apply Hw|apply HreqN; exact Hw|]. intros o w1 _ P1 C1 _ _. rewrite <- C1. apply IH. rewrite C1. exact P1.
  - rewrite exec_prog_rw. apply bind_N; [exact Hw|apply run_rw_R; apply Hw|apply q3O_okN; [apply rw_q3; apply Hw|apply Hw]|].
    intros x w1 _ P1 C1 _ _. rewrite <- C1. apply IH. rewrite C1. exact P1.
Qed.

Lemma path_reset (g : dag dep) t u : WF g -> path g u t -> path (snd (remove_outgoing g t)) u t.
Proof.
  intros W Pth. apply (path_pres g); [|exact Pth]. intros n Pn x X.
  assert (Hnt : n <> t) by (intros ->; exact (WF_acyclic g t W Pn)).
  rewrite (proj1 (remove_outgoing_other g t W) n Hnt). exact X.
Qed.

Lemma reach_acyclic a w t : StoreOK w -> OI a w -> reach a w t -> ~ In t (opens (trace w)).
Proof.
  intros H HO R X. destruct a as [c|]; unfold OI in HO; [|rewrite HO in X; exact X].
  exact (reach_not_anc (Some c) w t H R c eq_refl (HO t X)).
Qed.

(* the start of an execution of t, reached from the anchor: t is neither the anchor nor one of its ancestors, hence not open;
   paths into t survive the reset of t; t is the anchor of its own execution *)
Lemma exec_start_Pre a w t : Pre a w -> live (gr w) (tn t) = true -> reach a w t ->
  ~ In t (opens (trace w)) /\ Pre (Some t) (startw w t) /\
  (forall u, path (gr w) u (tn t) -> path (gr (reset_task w t)) u (tn t)).
Proof.
  intros [HL [HO HN]] Lt R.
  assert (Hnot : ~ In t (opens (trace w))) by (apply (reach_acyclic a); [apply HL|exact HO|exact R]).
  assert (R4 : trace (reset_task w t) = trace w) by reflexivity.
  assert (PR : forall u, path (gr w) u (tn t) -> path (gr (reset_task w t)) u (tn t)) by (intros u; apply path_reset; apply HL).
  split; [exact Hnot|]. split; [|exact PR]. split; [|split].
  - apply (exec_start_L w t HL Lt).
  - intros x X. change (In x (t :: opens (trace (reset_task w t)))) in X. rewrite R4 in X. destruct X as [<-|X]; [left; reflexivity|right].
    apply PR. destruct a as [c|]; unfold OI in HO; [|rewrite HO in X; destruct X]. exact (anc_path _ c t _ (R c eq_refl) (HO x X)).
  - change (~ In t (opens (trace (reset_task w t))) /\ NN (trace (reset_task w t))). rewrite R4. split; assumption.
Qed.

Lemma execute_with_N req a w t : NREQ req -> Pre a w -> live (gr w) (tn t) = true -> reach a w t ->
  okN a w (execute_with RC OC P req w t).
Proof.
  intros Hreq Hw Lt R. rewrite execute_with_eq. destruct (exec_start_Pre a w t Hw Lt R) as [Hnot [P2 PR]].
  destruct (reset_task_facts w t (proj1 (proj1 Hw))) as [_ R2 _ R4 _ R6].
  set (w2 := startw w t) in *.
  pose proof (exec_prog_N req Hreq (P t) w2 P2) as XN. change (cur w2) with (Some t) in XN.
  eapply holds_bind; [exact XN|]. intros o w3 _ [C3 [F3 [O3 N3]]].
  split; [cbn; exact R6|]. split; [|split].
  - (* the anchor's ancestors: untouched by the reset of t, then protected as ancestors of t *)
    destruct a as [c|]; [|exact Logic.I]. intros n A x X.
    assert (Hn : n <> tn t) by (intros ->; exact (reach_not_anc (Some c) w t (proj1 (proj1 Hw)) R c eq_refl A)).
    change (In x (kids_of (gr w3) n)). apply F3.
    + right. apply PR. exact (anc_path _ c t _ (R c eq_refl) A).
    + change (In x (kids_of (gr (reset_task w t)) n)). rewrite (R2 n Hn). exact X.
  - change (removeN t (opens (trace w3)) = opens (trace w)). rewrite O3.
    change (removeN t (t :: opens (trace (reset_task w t))) = opens (trace w)). rewrite R4.
    unfold removeN. cbn [filter]. rewrite N.eqb_refl. cbn [negb]. apply removeN_notin. exact Hnot.
  - exact N3.
Qed.

Lemma reserve_edge w t w3 : WF (gr w) -> reserve_require_dependency w t = Done tt w3 ->
  forall s, cur w = Some s -> In (tn t) (kids_of (gr w3) (tn s)).
Proof.
  intros W H s Hs. unfold reserve_require_dependency in H. rewrite Hs in H.
  destruct (add_dependency w (tn s) (tn t) DReserved) as [[| |] w'] eqn:E; inversion H; subst w'.
  apply (add_dependency_edge w (tn s) (tn t) DReserved w3 W E).
Qed.

Lemma okN_pre {A} a w w2 (m : outcome A) : q3 w w2 -> okN a w2 m -> okN a w m.
Proof. intros Q. apply okN_after; [apply Q|apply kgrow_FrameO; apply Q|apply q3_opens; exact Q]. Qed.

Lemma require_with_N mc : NMC mc -> NREQ (require_with OC mc).
Proof.
  intros [HmcR HmcN]. split; [apply (require_with_R RC); exact HmcR|].
  intros w t c Hw. unfold require_with.
  set (w1 := emit w (ERequireStart t c)). set (w2 := get_or_create_task_node w1 t).
  assert (Q2 : q3 w w2) by (eapply q3_trans; [apply (q3_emit w (ERequireStart t c)); reflexivity|apply q3_goc]).
  assert (L2 : L w2) by (apply goc_task_L; apply L_emit; apply Hw).
  assert (C2 : cur w2 = cur w) by apply Q2.
  assert (P2 : Pre (cur w) w2) by (eapply q3_Pre; eassumption).
  assert (Lt : live (gr w2) (tn t) = true) by apply live_goc_task.
  apply (okN_pre _ w w2); [exact Q2|].
  apply bind_N; [exact P2|apply reserve_R; assumption|apply q3O_okN; [apply reserve_q3; exact L2|apply P2]|]. intros [] w3 ER P3 C3 M3 _.
  assert (R3 : reach (cur w) w3 t).
  { intros s Hs. apply path1. apply (reserve_edge w2 t w3 (proj1 (proj1 L2)) ER). rewrite C2. exact Hs. }
  apply bind_N; [exact P3|apply HmcR; [apply P3|apply M3; exact Lt]|apply HmcN; [exact P3|apply M3; exact Lt|exact R3]|].
  intros o w4 _ P4 C4 _ _.
  set (w5 := emit w4 (ERequireEnd t c (oc_stamp (OC c) o) o)).
  assert (L5 : L w5) by (apply L_emit; apply P4).
  apply (okN_pre _ w4 w5); [apply q3_emit; reflexivity|].
  assert (P5 : Pre (cur w) w5) by (eapply q3_Pre; [apply (q3_emit w4); reflexivity|exact L5|exact P4]).
  apply bind_N; [exact P5|apply (update_R RC); exact L5|apply q3O_okN; [apply update_q3|apply P5]|].
  intros _ w6 _ P6 C6 _ _. apply q3_okN; [apply q3_refl|apply P6].
Qed.

Definition DR (t0 : task) (w : world) (ds : list (option dep)) : Prop :=
  forall d c st, In (Some (DRequire d c st)) ds -> In (tn d) (kids_of (gr w) (tn t0)).

Lemma DR_tail t0 w w' d tl : DR t0 w (d :: tl) -> (forall x, In x (kids_of (gr w) (tn t0)) -> In x (kids_of (gr w') (tn t0))) -> DR t0 w' tl.
Proof. intros HR K x c st X. apply K, (HR x c st). right. exact X. Qed.

Lemma check_resource_N a w r c st k : Pre a w -> (forall w1, q3 w w1 -> Pre a w1 -> okN a w1 (k w1)) ->
  okN a w (after_check k (check_resource_td RC w r c st)).
Proof.
  intros Hw Hk. destruct (check_resource_td_L RC w r c st (proj1 Hw)) as [X _].
  assert (Q : q3 w (snd (check_resource_td RC w r c st))) by (unfold check_resource_td; cbn [snd]; eapply q3_trans; apply q3_emit; reflexivity).
  destruct (check_resource_td RC w r c st) as [[| |e] w1]; cbn [snd after_check] in *.
  - apply (okN_pre _ w w1); [exact Q|]. apply Hk; [exact Q|eapply q3_Pre; eassumption].
  - apply q3_okN; [exact Q|apply Hw].
  - apply q3_okN; [eapply q3_trans; [exact Q|apply q3_same; reflexivity]|apply Hw].
Qed.

(* validation of t0's recorded dependencies: the anchor is t0 itself; a recorded require is an edge of t0 (DR), so its target
   has a node and is reached from t0 *)
Lemma check_deps_N mc t0 : NMC mc -> forall ds w, Pre (Some t0) w -> DR t0 w ds -> okN (Some t0) w (check_deps RC OC mc ds w).
Proof.
  intros [HmcR HmcN]. induction ds as [|d tl IH]; intros w Hw HR; cbn [check_deps]; [apply q3_okN; [apply q3_refl|apply Hw]|].
  destruct d as [[|t c st|r c st|r c st]|]; try apply Hw.
  - set (w1 := emit w (ECheckTaskStart t c st)).
    assert (L1 : L w1) by (apply L_emit; apply Hw).
    assert (P1 : Pre (Some t0) w1) by (eapply q3_Pre; [apply (q3_emit w); reflexivity|exact L1|exact Hw]).
    assert (E1 : In (tn t) (kids_of (gr w1) (tn t0))) by (apply (HR t c st); left; reflexivity).
    assert (Lt : live (gr w1) (tn t) = true) by apply (wf_closed _ (proj1 (proj1 L1)) _ _ E1).
    assert (R1 : reach (Some t0) w1 t) by (intros s Hs; inversion Hs; subst s; apply path1; exact E1).
    apply (okN_pre _ w w1); [apply q3_emit; reflexivity|].
    apply bind_N; [exact P1|apply HmcR; assumption|apply HmcN; assumption|]. intros o w2 _ P2 C2 _ F2.
    destruct (oc_check (OC c) o st).
    + set (w3 := emit w2 (ECheckTaskEnd t c st (negb true))).
      apply (okN_pre _ w2 w3); [apply q3_emit; reflexivity|].
      apply IH; [|eapply DR_tail; [exact HR|apply F2; left; reflexivity]].
      eapply q3_Pre; [apply (q3_emit w2); reflexivity|apply L_emit; apply P2|exact P2].
    + apply q3_okN; [apply q3_emit; reflexivity|apply P2].
  - apply (check_resource_N (Some t0) w r c st (check_deps RC OC mc tl) Hw). intros w1 Q P1.
    apply IH; [exact P1|eapply DR_tail; [exact HR|intros x; apply Q]].
  - apply (check_resource_N (Some t0) w r c st (check_deps RC OC mc tl) Hw). intros w1 Q P1.
    apply IH; [exact P1|eapply DR_tail; [exact HR|intros x; apply Q]].
Qed.

Lemma okN_weaken {A} a t w (m : outcome A) : reach a w t -> okN (Some t) w m -> okN a w m.
Proof.
  intros R Hm. destruct m as [x w'|k w'|]; cbn in *; [|exact Hm|exact Logic.I].
  destruct Hm as [A1 [A2 [A3 A4]]]. split; [exact A1|]. split; [eapply FrameO_weaken; eassumption|]. split; assumption.
Qed.
Lemma reach_pres a t w w' : reach a w t -> Frame t w w' -> reach a w' t.
Proof. intros R F c Hc. apply (path_pres (gr w)); [intros n Pn; apply F; right; exact Pn|apply R; exact Hc]. Qed.
Lemma reach_kgrow a t w w' : reach a w t -> kgrow w w' -> reach a w' t.
Proof. intros R K c Hc. apply (path_pres (gr w)); [intros n _; apply K|apply R; exact Hc]. Qed.

Lemma bind_N2 {A B} a t w (m : outcome A) (f : A -> world -> outcome B) :
  Pre a w -> reach a w t -> okR w m -> okN (Some t) w m ->
  (forall x w1, Pre a w1 -> reach a w1 t -> cur w1 = cur w -> mono w w1 -> okN a w1 (f x w1)) -> okN a w (bind m f).
Proof.
  intros Hw R RR N F. destruct m as [x w1|k w1|]; cbn [bind]; [|exact N|exact Logic.I].
  destruct (step_N a w _ x w1 Hw RR (okN_weaken a t w _ R N) eq_refl) as [P1 [C1 [M1 [Fa O1]]]].
  apply (okN_after a w w1); try assumption. apply F; try assumption. exact (reach_pres a t w w1 R (proj1 (proj2 N))).
Qed.

Lemma deps_DR w t : StoreOK w -> DR t w (deps_of_task w t).
Proof.
  intros [W [T _]] d c st X. rewrite deps_of_task_map in X.
  apply in_map_iff in X. destruct X as [d' [E Hd]]. destruct (T _ _ _ E) as [_ D]. cbn in D. subst d'. exact Hd.
Qed.

Lemma mark_q3 w t : q3 w (mark_consistent w t). Proof. apply q3_same; reflexivity. Qed.
Lemma q3_popped w t : q3 w (popped w t). Proof. apply q3_same; reflexivity. Qed.

Theorem make_consistent_td_N fuel : NMC (make_consistent_td RC OC P fuel).
Proof.
  induction fuel as [|f IH]; (split; [apply make_consistent_td_R|]); intros a w t Hw Lt R; cbn [make_consistent_td]; [exact Logic.I|].
  set (w0 := get_or_create_task_node w t).
  assert (Q0 : q3 w w0) by apply q3_goc.
  assert (L0 : L w0) by (apply goc_task_L; apply Hw).
  assert (P0 : Pre a w0) by (eapply q3_Pre; eassumption).
  assert (R0 : reach a w0 t) by (eapply reach_kgrow; [exact R|apply Q0]).
  assert (Lt0 : live (gr w0) (tn t) = true) by apply live_goc_task.
  apply (okN_pre _ w w0); [exact Q0|].
  destruct (memN t (consistent w0)); [destruct (get_task_output w0 t); [apply q3_okN; [apply q3_refl|apply P0]|apply P0]|].
  assert (Hreq : NREQ (require_with OC (make_consistent_td RC OC P f))) by (apply require_with_N; exact IH).
  assert (EX : forall w1, Pre a w1 -> reach a w1 t -> live (gr w1) (tn t) = true ->
            okN a w1 (bind (execute_with RC OC P (require_with OC (make_consistent_td RC OC P f)) w1 t) (fun o w2 => Done o (mark_consistent w2 t)))).
  { intros w1 P1 R1 Lt1. apply bind_N; [exact P1|apply execute_with_R; [exact (proj1 Hreq)|apply P1|exact Lt1]|apply execute_with_N; assumption|].
    intros o w2 _ P2 C2 _ _. apply q3_okN; [apply mark_q3|apply P2]. }
  destruct (get_task_output w0 t); [|apply EX; assumption].
  apply (bind_N2 a t); [exact P0|exact R0|apply check_deps_R; [apply make_consistent_td_L|exact L0]| |].
  - apply check_deps_N; [exact IH|split; [exact L0|split; [eapply OI_strengthen; [apply P0|exact R0]|apply P0]]|apply deps_DR; apply L0].
  - intros ok w1 P1 R1 C1 M1. destruct (if ok then get_task_output w1 t else None).
    + apply q3_okN; [apply mark_q3|apply P1].
    + apply EX; [exact P1|exact R1|apply M1; exact Lt0].
Qed.

Lemma sstep_q3 w w' : sstep w w' -> q3 w w'.
Proof.
  intros [a e He|a e|a t|a r]; [apply q3_emit; destruct e; try discriminate; reflexivity|apply q3_same; reflexivity| |apply q3_goc].
  unfold queue_add. destruct (memN _ _); [apply q3_refl|apply q3_same; reflexivity].
Qed.
Lemma sched_q3 w w' : chain sstep w w' -> q3 w w'.
Proof. apply (chain_in sstep q3 q3_refl q3_trans sstep_q3). Qed.
Lemma schedule_after_q3 w t o : q3 w (schedule_after RC OC w t o).
Proof. destruct (schedule_after_chain RC OC w t o) as [wm [C ->]]. eapply q3_trans; [apply sched_q3; exact C|apply mark_q3]. Qed.

Lemma require_bu_with_N mc : NMC mc -> NREQ (require_bu_with OC mc).
Proof.
  intros Hmc. split; [apply (require_bu_with_R RC); exact (proj1 Hmc)|].
  intros w t c Hw. unfold require_bu_with.
  apply bind_N; [exact Hw|apply (require_with_R RC); [exact (proj1 Hmc)|apply Hw]|apply require_with_N; [exact Hmc|exact Hw]|].
  intros o w' _ P' C' _ _. apply q3_okN; [apply mark_q3|apply P'].
Qed.

Lemma pop_least_reach w t m w1 : StoreOK w -> pop_least_from w t = Some (m, w1) -> m = t \/ path (gr w) (tn t) (tn m).
Proof.
  exact (pop_least_takes_a_dependency w t m w1).
Qed.

Lemma popped_Pre a w m : Pre a w -> In m (queue w) -> q3 w (popped w m) /\ live (gr (popped w m)) (tn m) = true /\ Pre a (popped w m).
Proof.
  intros Hw Im. destruct (popped_L w m (proj1 Hw) Im) as [L1 Lm]. pose proof (q3_popped w m) as Q1.
  split; [exact Q1|]. split; [exact Lm|eapply q3_Pre; eassumption].
Qed.

Definition NBU (fuel : nat) : Prop :=
  (forall a w t, Pre a w -> live (gr w) (tn t) = true -> reach a w t -> okN a w (bu_execute_and_schedule RC OC P fuel w t)) /\
  (forall a w t, Pre a w -> live (gr w) (tn t) = true -> reach a w t -> okN a w (bu_make_consistent RC OC P fuel w t)) /\
  (forall a w t, Pre a w -> reach a w t -> okN a w (bu_require_scheduled_now RC OC P fuel w t)).

Theorem bottom_up_N fuel : NBU fuel.
Proof.
  induction fuel as [|f [IH1 [IH2 IH3]]]; [repeat split; intros; exact Logic.I|].
  destruct (bottom_up_R RC OC P f) as [BR1 [BR2 BR3]].
  assert (Hmc : NMC (bu_make_consistent RC OC P f)) by (split; [exact BR2|exact IH2]).
  assert (Hreq : NREQ (require_bu_with OC (bu_make_consistent RC OC P f))) by (apply require_bu_with_N; exact Hmc).
  assert (E1 : forall a w t, Pre a w -> live (gr w) (tn t) = true -> reach a w t -> okN a w (bu_execute_and_schedule RC OC P (S f) w t)).
  { intros a w t Hw Lt R. cbn [bu_execute_and_schedule].
    apply bind_N; [exact Hw|apply execute_with_R; [exact (proj1 Hreq)|apply Hw|exact Lt]|apply execute_with_N; assumption|].
    intros o w1 _ P1 C1 _ _. apply q3_okN; [apply schedule_after_q3|apply P1]. }
  assert (E3 : forall a w t, Pre a w -> reach a w t -> okN a w (bu_require_scheduled_now RC OC P (S f) w t)).
  { intros a w t Hw R. cbn [bu_require_scheduled_now]. destruct (queue w); [apply q3_okN; [apply q3_refl|apply Hw]|].
    destruct (pop_least_from w t) as [[m w1]|] eqn:X; [|apply q3_okN; [apply q3_refl|apply Hw]].
    destruct (pop_least_popped w t m w1 X) as [Im W1]. destruct (popped_Pre a w m Hw Im) as [Q1 [Lm1 P1]]. rewrite <- W1 in Q1, Lm1, P1.
    assert (R1 : reach a w1 t) by (eapply reach_kgrow; [exact R|apply Q1]).
    apply (okN_pre _ w w1); [exact Q1|].
    destruct (pop_least_reach w t m w1 (proj1 (proj1 Hw)) X) as [->|Pm].
    - rewrite N.eqb_refl. apply bind_N; [exact P1|apply BR1; [apply P1|exact Lm1]|apply IH1; assumption|].
      intros o w2 _ P2 C2 _ _. apply q3_okN; [apply q3_refl|apply P2].
    - (* m is a transitive dependency of t: execute it under the anchor t *)
      assert (Pm1 : path (gr w1) (tn t) (tn m)) by (rewrite W1; exact Pm).
      apply (bind_N2 a t); [exact P1|exact R1|apply BR1; [apply P1|exact Lm1]| |].
      + apply IH1; [split; [apply P1|split; [eapply OI_strengthen; [apply P1|exact R1]|apply P1]]|exact Lm1|intros c Hc; inversion Hc; subst c; exact Pm1].
      + intros o w2 P2 R2 C2 M2. destruct (N.eqb m t); [apply q3_okN; [apply q3_refl|apply P2]|apply IH3; assumption]. }
  split; [exact E1|]. split; [|exact E3].
  intros a w t Hw Lt R. cbn [bu_make_consistent]. destruct (memN t (consistent w)).
  - destruct (get_task_output w t); [apply q3_okN; [apply q3_refl|apply Hw]|apply Hw].
  - destruct ((match get_task_output w t with None => true | Some _ => false end) && negb (memN t (queue w)))%bool;
      [apply execute_with_N; assumption|].
    apply bind_N; [exact Hw|apply BR3; apply Hw|apply IH3; assumption|].
    intros r w1 _ P1 C1 _ _. destruct r; [apply q3_okN; [apply q3_refl|apply P1]|].
    destruct (get_task_output w1 t); [apply q3_okN; [apply q3_refl|apply P1]|apply P1].
Qed.

Theorem execute_scheduled_N fuel : forall w, Pre None w -> okN None w (execute_scheduled RC OC P fuel w).
Proof.
  induction fuel as [|f IH]; intros w Hw; cbn [execute_scheduled]; [exact Logic.I|].
  destruct (queue_pop w) as [[t w1]|] eqn:X; [|apply q3_okN; [apply q3_refl|apply Hw]].
  destruct (queue_pop_popped w t w1 X) as [It W1]. destruct (popped_Pre None w t Hw It) as [Q1 [Lt1 P1]]. rewrite <- W1 in Q1, Lt1, P1.
  apply (okN_pre _ w w1); [exact Q1|].
  apply bind_N; [exact P1|apply (bottom_up_R RC OC P f); [apply P1|exact Lt1]|
                 apply (proj1 (bottom_up_N f)); [exact P1|exact Lt1|intros c Hc; discriminate]|].
  intros _ w2 _ P2 C2 _ _. apply IH. exact P2.
Qed.

Variable always : ocid.

Definition SPre (w : world) : Prop := Pre None w /\ cur w = None.
Definition okS {A} (m : outcome A) : Prop := match m with Done _ w' => SPre w' | Abort _ w' => NN (trace w') | OutOfFuel => True end.

Lemma okN_S {A} w (m : outcome A) : SPre w -> okR w m -> okN None w m -> okS m.
Proof.
  intros [[HL [HO HN]] HC] R N. destruct m as [x w'|k w'|]; cbn in *; [|exact N|exact Logic.I].
  destruct N as [C [_ [O N']]]. split; [|congruence]. split; [apply R|]. split; [cbn; rewrite O; exact HO|exact N'].
Qed.

Lemma session_require_N fuel w t : SPre w -> okS (session_require RC OC P always fuel w t).
Proof.
  intros [Hw Hc]. unfold session_require, require_td.
  set (w1 := emit (set_cur w None) EBuildStart).
  assert (Q1 : q3 w w1) by (eapply q3_trans; [apply (q3_same w (set_cur w None)); [reflexivity|reflexivity|cbn; symmetry; exact Hc]|apply q3_emit; reflexivity]).
  assert (L1 : L w1) by (apply L_emit, L_set_cur_none; apply Hw).
  assert (S1 : SPre w1) by (split; [eapply q3_Pre; eassumption|reflexivity]).
  pose proof (require_with_N (make_consistent_td RC OC P fuel) (make_consistent_td_N fuel)) as [RR RN].
  specialize (RR w1 t always L1). specialize (RN w1 t always (proj1 S1)). change (cur w1) with (@None task) in RN.
  eapply holds_bind; [exact (okN_S w1 _ S1 RR RN)|]. intros o w2 _ [P2 C2]. split; [|exact C2]. eapply q3_Pre; [apply (q3_emit w2 EBuildEnd); reflexivity|apply L_emit; apply P2|exact P2].
Qed.

Lemma session_bottom_up_N fuel w ch : SPre w -> okS (session_bottom_up RC OC P fuel w ch).
Proof.
  intros [Hw Hc]. unfold session_bottom_up. cbv zeta.
  destruct (fold_affected_L RC ch _ (L_set_queue_nil w (proj1 Hw))) as [L1 M1]. set (w1 := fold_left (schedule_tasks_affected_by RC) ch (set_queue w [])) in *.
  assert (Q1 : q3 w w1).
  { eapply q3_trans; [apply (q3_same w (set_queue w [])); reflexivity|apply sched_q3, (chain_fold sstep); intros; apply schedule_tasks_affected_by_chain]. }
  set (w2 := emit (set_cur w1 None) EBuildStart).
  assert (Q2 : q3 w w2).
  { eapply q3_trans; [exact Q1|]. eapply q3_trans; [apply (q3_same w1 (set_cur w1 None)); [reflexivity|reflexivity|cbn; symmetry; rewrite (proj2 (proj2 Q1)); exact Hc]|apply q3_emit; reflexivity]. }
  assert (L2 : L w2) by (apply L_emit, L_set_cur_none; exact L1).
  assert (S2 : SPre w2) by (split; [eapply q3_Pre; eassumption|reflexivity]).
  eapply holds_bind; [exact (okN_S w2 _ S2 (execute_scheduled_R RC OC P fuel w2 L2) (execute_scheduled_N fuel w2 (proj1 S2)))|].
  intros u w3 _ [P3 C3]. split; [|exact C3]. eapply q3_Pre; [apply (q3_emit w3 EBuildEnd); reflexivity|apply L_emit; apply P3|exact P3].
Qed.

Lemma okS_ses {A} (m : outcome A) : okS m -> sesA (fun w => NN (trace w)) SPre (fun _ => True) m.
Proof. destruct m; cbn; [trivial|intros H; split; [exact Logic.I|exact H]|trivial]. Qed.

Lemma run_session_N fuel ops : forall w, SPre w -> NN (trace (snd (run_session RC OC P always fuel w ops))).
Proof.
  intros w Hw. apply (run_session_any RC OC P always (fun w => NN (trace w)) SPre (fun _ => True)); [intros a Ha; apply Ha| | |exact Hw].
  - intros f a t Ha. apply okS_ses, session_require_N, Ha.
  - intros f a ch Ha. apply okS_ses, session_bottom_up_N, Ha.
Qed.

Lemma SPre_new_session w : L w -> SPre (new_session w).
Proof. intros H. split; [|reflexivity]. split; [apply L_new_session; exact H|]. split; [reflexivity|exact Logic.I]. Qed.

Lemma NN_spec tr : NN tr -> forall a t b, tr = a ++ EExecStart t :: b -> ~ In t (opens b).
Proof.
  intros H a. revert tr H. induction a as [|e a IH]; intros tr H t b E; subst tr; cbn [app] in H.
  - apply H.
  - apply (IH (a ++ EExecStart t :: b)); [|reflexivity]. destruct e; cbn in H; try exact H. apply H.
Qed.

(* C07, EVERY session of EVERY history (top-down requires and bottom-up builds in any mix, completed or aborted): whenever a task
   starts executing, no execution of it is open -- the events before that start (b, newest first) contain no unmatched start of it *)
Theorem no_task_entered_while_executing fuel h ops :
  let w := snd (run_history RC OC P always fuel init_world h) in
  let tr := trace (snd (run_session RC OC P always fuel (new_session w) ops)) in
  forall a t b, tr = a ++ EExecStart t :: b -> ~ In t (opens b).
Proof.
  intros w tr. apply NN_spec. apply run_session_N. apply SPre_new_session.
  apply (run_history_R RC OC P always fuel h init_world L_init).
Qed.

End NR.
