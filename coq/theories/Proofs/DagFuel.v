(* The fuel the model gives to the graph searches always suffices (the Rust loops have no bound; this removes the model-only
   outcome AFuel / None from every statement): the LIFO potential argument; with it, what the two depth-first searches of add_edge
   and the walk of contains_transitive_edge return when run with the model's fuel, and the fuel bounds of the two descendants walks
   (add_edge as a whole: DagAddEdge.v, DagRun.v).
   The searches mark a node when it is popped and may push a node several times; the bound "pops <= 1 + edges" rests on the
   LIFO discipline: when a second copy of a node is popped, everything its first copy pushed has been popped already. *)
From Coq Require Import List NArith Bool Lia Permutation Arith Sorted.
From PieV Require Import Model.Dag Proofs.DagLib Proofs.DagWF Proofs.DagPath.
Import ListNotations.
Open Scope N_scope.

Section Gen.
(* a generic stack search: [next] = successors, [ok] = which successors may be pushed *)
Variable next : node -> list node.
Variable ok : node -> bool.
Variable nodes : list node.          (* all nodes that can ever be on the stack *)
Hypothesis nodes_nodup : NoDup nodes.

Definition cand (vis : list node) (x : node) : list node := filter (fun c => negb (memN c (x :: vis)) && ok c) (next x).
Definition okn (k : node) : list node := filter ok (next k).
Fixpoint pot (vis ns : list node) : nat :=
  match ns with [] => 0%nat | k :: tl => ((if memN k vis then 0 else length (okn k)) + pot vis tl)%nat end.

Lemma cand_le (vis : list node) (x : node) : (length (cand vis x) <= length (okn x))%nat.
Proof.
  unfold cand, okn. induction (next x) as [|c tl IH]; cbn [filter length]; [lia|].
  destruct (ok c); [|rewrite andb_false_r; exact IH]. rewrite andb_true_r.
  destruct (negb (memN c (x :: vis))); cbn [length]; lia.
Qed.

Lemma pot_visited (vis : list node) (x : node) (ns : list node) : memN x vis = true -> pot (x :: vis) ns = pot vis ns.
Proof.
  intros Hx. induction ns as [|k tl IH]; cbn [pot]; [reflexivity|]. rewrite IH. f_equal.
  rewrite memN_cons. destruct (N.eqb_spec k x) as [E|Hne]; cbn [orb]; [subst k; rewrite Hx; reflexivity|reflexivity].
Qed.
Lemma pot_notin (vis : list node) (x : node) (ns : list node) : ~ In x ns -> pot (x :: vis) ns = pot vis ns.
Proof.
  intros Hn. induction ns as [|k tl IH]; cbn [pot]; [reflexivity|]. rewrite IH by (intros X; apply Hn; right; exact X). f_equal.
  rewrite memN_cons. destruct (N.eqb_spec k x) as [E|Hne]; cbn [orb]; [exfalso; apply Hn; left; exact E|reflexivity].
Qed.
Lemma pot_visit (vis : list node) (x : node) (ns : list node) : NoDup ns -> In x ns -> memN x vis = false -> (pot (x :: vis) ns + length (okn x) = pot vis ns)%nat.
Proof.
  intros ND Hin Hx. induction ns as [|k tl IH]; [destruct Hin|]. inversion ND as [|k' tl' Hk ND']; subst. cbn [pot].
  destruct Hin as [E|Hin].
  - subst k. rewrite (pot_notin vis x tl Hk). rewrite memN_cons, N.eqb_refl. cbn [orb]. rewrite Hx. lia.
  - rewrite <- (IH ND' Hin). rewrite memN_cons.
    destruct (N.eqb_spec k x) as [E|Hne]; [subst k; contradiction|]. cbn [orb]. lia.
Qed.

(* LIFO invariant: below a visited node on the stack, its pushable successors are visited or lie above it *)
Definition Lifo (stack vis : list node) : Prop :=
  forall pre y post, stack = pre ++ y :: post -> memN y vis = true ->
    forall c, In c (next y) -> ok c = true -> memN c vis = true \/ In c pre.

Lemma lifo_pop_visited (x : node) (st vis : list node) : Lifo (x :: st) vis -> memN x vis = true -> cand vis x = [].
Proof.
  intros L Hx. unfold cand. induction (next x) as [|c tl IH] eqn:E in L |- *; [reflexivity|].
  assert (Hc : forall c0, In c0 (c :: tl) -> ok c0 = true -> memN c0 vis = true).
  { intros c0 I0 O0. destruct (L [] x st eq_refl Hx c0 ltac:(rewrite E; exact I0) O0) as [V|[]]. exact V. }
  clear L E. induction (c :: tl) as [|c1 tl1 IH1]; [reflexivity|]. cbn [filter].
  destruct (ok c1) eqn:O1.
  - rewrite (memN_cons c1 x vis) at 1. rewrite (Hc c1 (or_introl eq_refl) O1). rewrite orb_true_r. cbn. apply IH1. intros c0 I0. apply Hc. right. exact I0.
  - rewrite andb_false_r. apply IH1. intros c0 I0. apply Hc. right. exact I0.
Qed.

Lemma lifo_step (x : node) (st vis : list node) : Lifo (x :: st) vis -> Lifo (rev (cand vis x) ++ st) (x :: vis).
Proof.
  intros L pre y post E Hy c Hc Oc.
  assert (Hpush : forall z, In z (rev (cand vis x)) -> memN z (x :: vis) = false).
  { intros z Hz. apply in_rev in Hz. unfold cand in Hz. apply filter_In in Hz. destruct Hz as [_ Hz]. apply andb_true_iff in Hz. apply negb_true_iff. exact (proj1 Hz). }
  destruct (memN c (x :: vis)) eqn:Vc; [left; reflexivity|right].
  (* y is visited and the nodes just pushed are not: y lies in st *)
  assert (Hsplit : exists pre0, pre = rev (cand vis x) ++ pre0 /\ st = pre0 ++ y :: post).
  { revert pre E. generalize (rev (cand vis x)) Hpush. intros l. induction l as [|z l IHl]; intros Hp pre E.
    - exists pre. split; [reflexivity|exact E].
    - destruct pre as [|p pre'].
      + cbn in E. inversion E; subst z. rewrite (Hp y (or_introl eq_refl)) in Hy. discriminate.
      + cbn in E. inversion E; subst p. destruct (IHl (fun z0 H0 => Hp z0 (or_intror H0)) pre' H1) as [pre0 [A B]]. exists pre0. split; [cbn; f_equal; exact A|exact B]. }
  destruct Hsplit as [pre0 [-> Est]]. apply in_or_app.
  rewrite memN_cons in Hy. destruct (N.eqb_spec y x) as [->|Hne].
  - (* a lower copy of x: its candidates were pushed just now *)
    left. apply -> in_rev. unfold cand. apply filter_In. split; [exact Hc|]. rewrite Vc, Oc. reflexivity.
  - cbn in Hy. destruct (L (x :: pre0) y post ltac:(cbn; f_equal; exact Est) Hy c Hc Oc) as [V|[<-|I0]].
    + rewrite memN_cons, V, orb_true_r in Vc. discriminate.
    + rewrite memN_cons, N.eqb_refl in Vc. discriminate.
    + right. exact I0.
Qed.

Hypothesis nodes_all : forall x, ~ In x nodes -> next x = [].

(* looking at x for the first time pays for the successors it may push *)
Lemma pot_pays (vis : list node) (x : node) : memN x vis = false -> (pot (x :: vis) nodes + length (okn x) = pot vis nodes)%nat.
Proof.
  intros Hx. destruct (in_dec N.eq_dec x nodes) as [Hin|Hn]; [exact (pot_visit vis x nodes nodes_nodup Hin Hx)|].
  unfold okn. rewrite (nodes_all x Hn), (pot_notin vis x nodes Hn). apply Nat.add_0_r.
Qed.

Lemma phi_step (x : node) (st vis : list node) : Lifo (x :: st) vis ->
  (length (rev (cand vis x) ++ st) + pot (x :: vis) nodes < length (x :: st) + pot vis nodes)%nat.
Proof.
  intros L. rewrite app_length, rev_length. cbn [length].
  destruct (memN x vis) eqn:Hx.
  - rewrite (lifo_pop_visited x st vis L Hx), (pot_visited vis x nodes Hx). cbn. lia.
  - pose proof (pot_pays vis x Hx). pose proof (cand_le vis x). lia.
Qed.
End Gen.

Lemma lifo_single next ok (x : node) (vis : list node) : memN x vis = false -> Lifo next ok [x] vis.
Proof.
  intros Hx pre y post E Hy. destruct pre as [|p pre']; cbn in E; inversion E; subst.
  - congruence.
  - destruct pre'; discriminate.
Qed.

Section Fuel.
Context {ED : Type}.
Implicit Types g : dag ED.

Definition nodesG g : list node := map fst (infos g).

(* what the bound needs from the graph: holds for well-formed graphs and for the intermediate graph of add_edge *)
Record FW g : Prop := mkFW {
  fw_ids : NoDup (nodesG g);
  fw_kn : forall u, NoDup (kids_of g u);
  fw_pn : forall v, NoDup (pars_of g v);
  fw_sym : forall u v, In v (kids_of g u) <-> In u (pars_of g v);
  fw_closed : forall u v, In v (kids_of g u) -> live g u = true /\ live g v = true;
  fw_edata : forall u v, In v (kids_of g u) -> get_edata g u v <> None
}.
Lemma WF_FW g : WF g -> FW g.
Proof.
  intros W. constructor; [apply (wf_ids _ W)|apply (wf_kn _ W)|apply (wf_pn _ W)|apply (wf_sym _ W)|apply (wf_closed _ W)|].
  intros u v X. apply (wf_edata _ W). exact X.
Qed.

Lemma edata_key g u v : get_edata g u v <> None -> In (u, v) (map fst (edata g)).
Proof.
  unfold get_edata. induction (edata g) as [|[k e] tl IH]; cbn; [intros X; contradiction|].
  destruct (pair_eqb k (u, v)) eqn:Z; [intros _; left; apply pair_eqb_eq; exact Z|intros X; right; apply IH; exact X].
Qed.

(* sums of adjacency lengths are bounded by the number of edge-data entries *)
Lemma filter_len {A} (f : A -> bool) l : (length (filter f l) <= length l)%nat.
Proof. induction l as [|a tl IH]; cbn; [lia|]. destruct (f a); cbn; lia. Qed.
Lemma pot_le next ok vis ns : (pot next ok vis ns <= length (flat_map (fun k => map (pair k) (next k)) ns))%nat.
Proof.
  induction ns as [|k tl IH]; cbn [pot flat_map]; [lia|]. rewrite app_length, map_length.
  assert (length (okn next ok k) <= length (next k))%nat by (unfold okn; apply filter_len).
  destruct (memN k vis); lia.
Qed.
Lemma flat_nodup {B} (f : node -> list B) (inj : forall k k' b, In b (f k) -> In b (f k') -> k = k') ns :
  NoDup ns -> (forall k, NoDup (f k)) -> NoDup (flat_map f ns).
Proof.
  intros ND Hf. induction ns as [|k tl IH]; cbn; [constructor|]. inversion ND as [|k' tl' Hk ND']; subst.
  apply NoDup_app_intro_t; [apply Hf|apply IH; exact ND'|].
  intros b B1 B2. apply in_flat_map in B2. destruct B2 as [k' [I1 I2]]. assert (k = k') by (eapply inj; eassumption). subst k'. contradiction.
Qed.
(* the pairs (k, c) with c in [next k] are as many edge-data keys, read through [key] *)
Lemma adj_sum g (next : node -> list node) (key : node * node -> node * node) :
  NoDup (nodesG g) -> (forall k, NoDup (next k)) -> (forall p q, key p = key q -> p = q) ->
  (forall k c, In c (next k) -> get_edata g (fst (key (k, c))) (snd (key (k, c))) <> None) ->
  (length (flat_map (fun k => map (pair k) (next k)) (nodesG g)) <= length (edata g))%nat.
Proof.
  intros ND Hn Inj He. rewrite <- (map_length fst (edata g)), <- (map_length key (flat_map _ _)). apply NoDup_incl_length.
  - apply FinFun.Injective_map_NoDup; [exact Inj|]. apply flat_nodup; [|exact ND|].
    + intros k k' b B1 B2. apply in_map_iff in B1. destruct B1 as [c [E1 _]]. apply in_map_iff in B2. destruct B2 as [c' [E2 _]]. subst b. inversion E2. reflexivity.
    + intros k. apply FinFun.Injective_map_NoDup; [intros a b E; inversion E; reflexivity|apply Hn].
  - intros p X. apply in_map_iff in X. destruct X as [q [<- X]]. apply in_flat_map in X. destruct X as [k [_ X]].
    apply in_map_iff in X. destruct X as [c [<- X]]. rewrite (surjective_pairing (key (k, c))). apply edata_key, He. exact X.
Qed.
Lemma kids_sum g : FW g -> (length (flat_map (fun k => map (pair k) (kids_of g k)) (nodesG g)) <= length (edata g))%nat.
Proof. intros F. apply (adj_sum g _ (fun p => p)); [apply (fw_ids _ F)|apply (fw_kn _ F)|intros p q E; exact E|apply (fw_edata _ F)]. Qed.
Lemma pars_sum g : FW g -> (length (flat_map (fun k => map (pair k) (pars_of g k)) (nodesG g)) <= length (edata g))%nat.
Proof.
  intros F. apply (adj_sum g _ (fun p => (snd p, fst p))); [apply (fw_ids _ F)|apply (fw_pn _ F)|intros [a b] [a' b'] E; inversion E; reflexivity|].
  intros k c X. apply (fw_edata _ F), (fw_sym _ F). exact X.
Qed.

Lemma in_nodes g x : live g x = true -> In x (nodesG g). Proof. apply live_true_iff. Qed.

Lemma dead_kids g x : ~ In x (nodesG g) -> kids_of g x = [].
Proof. intros H. apply kids_of_dead. destruct (live g x) eqn:Lx; [destruct (H (in_nodes g x Lx))|reflexivity]. Qed.
Lemma dead_pars g x : ~ In x (nodesG g) -> pars_of g x = [].
Proof. intros H. apply pars_of_dead. destruct (live g x) eqn:Lx; [destruct (H (in_nodes g x Lx))|reflexivity]. Qed.

Lemma okn_all g k : okn (kids_of g) (fun _ => true) k = kids_of g k.
Proof. unfold okn. induction (kids_of g k) as [|c tl IHl]; cbn; [reflexivity|f_equal; exact IHl]. Qed.

Lemma visit_pays g k vis : NoDup (nodesG g) -> memN k vis = false ->
  (pot (kids_of g) (fun _ => true) (k :: vis) (nodesG g) + length (kids_of g k) <= pot (kids_of g) (fun _ => true) vis (nodesG g))%nat.
Proof.
  intros ND Hk. pose proof (pot_pays (kids_of g) (fun _ => true) (nodesG g) ND (dead_kids g) vis k Hk) as P.
  rewrite okn_all in P. rewrite <- P. apply le_n.
Qed.

Lemma start_bound next ok vis g :
  (length (flat_map (fun k => map (pair k) (next k)) (nodesG g)) <= length (edata g))%nat ->
  forall x : node, (length [x] + pot next ok vis (nodesG g) < dfs_fuel g)%nat.
Proof.
  intros B x. pose proof (pot_le next ok vis (nodesG g)). unfold dfs_fuel. cbn [length]. lia.
Qed.

Lemma dfs_forward_spec g ub root (R : node -> Prop) :
  NoDup (nodesG g) ->
  (forall x c, R x -> N.ltb (rank_of g x) ub = true -> In c (kids_of g x) -> R c) ->
  forall fuel stack res,
  FInv g ub root R stack res -> Lifo (kids_of g) (fun c => N.ltb (rank_of g c) ub) stack res ->
  (length stack + pot (kids_of g) (fun c => N.ltb (rank_of g c) ub) res (nodesG g) < fuel)%nat ->
  match dfs_forward fuel g ub stack res res with
  | DfsOk cf vis => vis = cf /\ FInv g ub root R [] cf
  | DfsCycle => exists x c, (R x /\ rank_of g x < ub) /\ In c (kids_of g x) /\ rank_of g c = ub
  | DfsFuel => False
  end.
Proof.
  intros ND Step. induction fuel as [|f IH]; intros stack res [S NB] L Phi; [inversion Phi|]. cbn [dfs_forward].
  destruct stack as [|x st]; [split; [reflexivity|split; assumption]|].
  destruct (scan_fwd g ub (x :: res) (kids_of g x) st) as [st'|] eqn:Sc.
  - rewrite (scan_fwd_shape _ _ _ _ _ _ Sc). apply IH; [split|exact (lifo_step _ _ x st res L)|].
    + apply (search_scan _ _ _ _ _ Step st res x (x :: res) S). intros c C. left. exact C.
    + intros y [<-|Y]; [exact (scan_fwd_some _ _ _ _ _ _ Sc)|apply NB; exact Y].
    + exact (Nat.lt_le_trans _ _ _ (phi_step _ _ _ ND (dead_kids g) x st res L) (proj1 (Nat.lt_succ_r _ _) Phi)).
  - destruct (scan_fwd_none _ _ _ _ _ Sc) as [c [Hc Hr]]. exists x, c. split; [|split; assumption].
    destruct (proj1 S x (or_introl (or_introl eq_refl))) as [A B]. split; [exact A|apply N.ltb_lt; exact B].
Qed.

Lemma dfs_backward_spec g lb root (R : node -> Prop) cf :
  NoDup (nodesG g) ->
  (forall x c, R x -> N.ltb lb (rank_of g x) = true -> In c (pars_of g x) -> R c) ->
  forall fuel stack res,
  BInv g lb root R cf stack res -> Lifo (pars_of g) (fun c => N.ltb lb (rank_of g c)) stack (res ++ cf) ->
  (length stack + pot (pars_of g) (fun c => N.ltb lb (rank_of g c)) (res ++ cf) (nodesG g) < fuel)%nat ->
  match dfs_backward fuel g lb stack (res ++ cf) res with
  | DfsOk cb vis => vis = cb ++ cf /\ BInv g lb root R cf [] cb
  | _ => False
  end.
Proof.
  intros ND Step. induction fuel as [|f IH]; intros stack res S L Phi; [inversion Phi|]. cbn [dfs_backward].
  destruct stack as [|x st]; [split; [reflexivity|exact S]|].
  rewrite scan_bwd_shape. apply (IH _ (x :: res)); [|exact (lifo_step _ _ x st (res ++ cf) L)|].
  - apply (search_scan _ _ _ _ _ Step st res x (x :: res ++ cf) S).
    intros c [<-|C]; [left; left; reflexivity|]. apply in_app_or in C. destruct C as [C|C]; [left; right; exact C|right; exact C].
  - exact (Nat.lt_le_trans _ _ _ (phi_step _ _ _ ND (dead_pars g) x st (res ++ cf) L) (proj1 (Nat.lt_succ_r _ _) Phi)).
Qed.

Lemma cte_loop_spec g src dst : NoDup (nodesG g) -> forall fuel stack visited,
  CInv g src dst stack visited -> (length stack + pot (kids_of g) (fun _ => true) visited (nodesG g) < fuel)%nat ->
  exists b, cte_loop fuel g dst stack visited = Some b /\ (b = true <-> path g src dst).
Proof.
  intros ND. induction fuel as [|f IH]; intros stack visited [S NDst] Phi; [inversion Phi|]. cbn [cte_loop].
  destruct stack as [|k st].
  - exists false. split; [reflexivity|]. split; [discriminate|]. intros P. exfalso. destruct S as [_ [I2 I3]].
    destruct (path_inv g (fun x => In x visited)) with (u := src) (v := dst) as [w [Hw Hd]]; [|exact P| |exact (NDst w Hw Hd)].
    + intros x c X C. destruct (I2 x X c C eq_refl) as [Y|[[]|[]]]. exact Y.
    + destruct (I3 src (or_introl eq_refl)) as [Y|[]]. exact Y.
  - assert (Keep : forall x, In x (k :: st) -> x = k \/ In x st) by (intros x [<-|X]; tauto). cbn [length] in Phi.
    destruct (memN k visited) eqn:M.
    + apply IH; [split; [|exact NDst]|lia]. apply memN_In in M.
      apply (search_drop _ _ _ _ _ (k :: st) st visited k S M); [intros x X; right; exact X|exact Keep].
    + destruct (memN dst (kids_of g k)) eqn:D.
      * exists true. split; [reflexivity|]. split; [intros _|reflexivity]. apply memN_In in D.
        destruct (proj1 (proj1 S k (or_introl (or_introl eq_refl)))) as [->|P]; [apply path1; exact D|eapply path_snoc; eassumption].
      * apply IH; [apply memN_false in D; split|].
        -- apply (search_push _ _ _ _ _ (fun x c A _ => from_step g src x c A) (k :: st) st visited k _ S (or_introl eq_refl)); [intros x X; right; exact X|exact Keep| |reflexivity].
           intros c. symmetry. apply in_rev.
        -- intros x [<-|X]; [exact D|apply NDst; exact X].
        -- rewrite app_length, rev_length. pose proof (visit_pays g k visited ND M). unfold node in *. lia.
Qed.

Theorem contains_transitive_edge_total g u v :
  WF g -> exists b, contains_transitive_edge g u v = Some b /\ (b = true <-> path g u v).
Proof.
  intros W.
  assert (No : ~ path g u v -> exists b, Some false = Some b /\ (b = true <-> path g u v)).
  { intros H. exists false. split; [reflexivity|]. split; [discriminate|]. intros P. destruct (H P). }
  unfold contains_transitive_edge.
  destruct (live g u) eqn:Lu; cbn [negb orb]; [|apply No; intros P; destruct (path_live g u v W P); congruence].
  destruct (live g v) eqn:Lv; cbn [negb orb]; [|apply No; intros P; destruct (path_live g u v W P); congruence].
  destruct (N.eqb_spec u v) as [->|Huv]; [apply No; apply WF_acyclic; exact W|].
  assert (I : CInv g u v [u] []).
  { split; [|intros x []]. apply search_init; [intros x X; exact X|]. intros x [<-|[]]. split; [left|]; reflexivity. }
  apply (cte_loop_spec g u v (wf_ids g W) _ _ _ I).
  pose proof (pot_le (kids_of g) (fun _ => true) [] (nodesG g)). pose proof (kids_sum g (WF_FW g W)). unfold walk_fuel. cbn [length]. lia.
Qed.

Theorem contains_transitive_edge_spec g u v b :
  WF g -> contains_transitive_edge g u v = Some b -> (b = true <-> path g u v).
Proof. intros W H. destruct (contains_transitive_edge_total g u v W) as [b' [E S]]. rewrite E in H. injection H as <-. exact S. Qed.

Theorem contains_transitive_edge_answers g s d : WF g -> contains_transitive_edge g s d <> None.
Proof. intros W. destruct (contains_transitive_edge_total g s d W) as [b [E _]]. rewrite E. discriminate. Qed.

Lemma desc_unsorted_loop_fuel g : NoDup (nodesG g) -> forall fuel stack vis acc,
  (length stack + pot (kids_of g) (fun _ => true) vis (nodesG g) < fuel)%nat -> desc_unsorted_loop fuel g stack vis acc <> None.
Proof.
  intros ND. induction fuel as [|f IH]; intros stack vis acc Phi; [lia|]. cbn [desc_unsorted_loop].
  destruct stack as [|k st]; [discriminate|].
  destruct (memN k vis) eqn:Hk.
  - apply IH. cbn [length] in Phi. lia.
  - apply IH. rewrite app_length, rev_length. pose proof (visit_pays g k vis ND Hk) as VP. cbn [length] in Phi.
    unfold node in *. lia.
Qed.

Lemma remove_first_length m (l : list N) : In m l -> S (length (remove_first m l)) = length l.
Proof.
  induction l as [|y tl IH]; intros H; [destruct H|]. cbn [remove_first].
  destruct (N.eqb_spec m y) as [->|Hne]; [reflexivity|]. cbn [length]. f_equal. apply IH. destruct H as [E|H]; [congruence|exact H].
Qed.

Lemma desc_sorted_loop_fuel g : NoDup (nodesG g) -> forall fuel queue vis acc,
  (length queue + pot (kids_of g) (fun _ => true) vis (nodesG g) < fuel)%nat -> desc_sorted_loop fuel g queue vis acc <> None.
Proof.
  intros ND. induction fuel as [|f IH]; intros queue vis acc Phi; [lia|]. cbn [desc_sorted_loop].
  destruct queue as [|q0 qtl]; [discriminate|].
  destruct (heap_min_spec g qtl q0) as [Hm _].
  pose proof (remove_first_length _ _ Hm) as RL.
  destruct (memN (heap_min g q0 qtl) vis) eqn:Hk.
  - apply IH. cbn [length] in *. unfold node in *. lia.
  - apply IH. rewrite app_length. pose proof (visit_pays g _ vis ND Hk). cbn [length] in *. unfold node in *. lia.
Qed.

Lemma kids_le_nodes g n : WF g -> (length (kids_of g n) <= length (infos g))%nat.
Proof.
  intros W. rewrite <- (map_length fst (infos g)). apply NoDup_incl_length; [apply (wf_kn g W)|].
  intros c C. apply live_true_iff. apply (wf_closed g W n c C).
Qed.

Lemma start_potential g n : WF g ->
  (length (kids_of g n) + pot (kids_of g) (fun _ => true) [] (nodesG g) < walk_fuel g)%nat.
Proof.
  intros W. pose proof (kids_le_nodes g n W). pose proof (pot_le (kids_of g) (fun _ => true) [] (nodesG g)).
  pose proof (kids_sum g (WF_FW g W)). unfold walk_fuel. unfold node in *. lia.
Qed.

Theorem descendants_unsorted_answers g n : WF g -> descendants_unsorted g n <> AFuel.
Proof.
  intros W. unfold descendants_unsorted. destruct (negb (live g n)); [discriminate|].
  destruct (desc_unsorted_loop (walk_fuel g) g (rev (kids_of g n)) [] []) eqn:D; [discriminate|].
  exfalso. revert D. apply desc_unsorted_loop_fuel; [apply (wf_ids _ W)|]. rewrite rev_length. apply start_potential. exact W.
Qed.

Theorem descendants_answers g n : WF g -> descendants g n <> AFuel.
Proof.
  intros W. unfold descendants. destruct (negb (live g n)); [discriminate|].
  destruct (desc_sorted_loop (walk_fuel g) g (kids_of g n) [] []) eqn:D; [discriminate|].
  exfalso. revert D. apply desc_sorted_loop_fuel; [apply (wf_ids _ W)|]. apply start_potential. exact W.
Qed.

Theorem descendants_unsorted_total g n : WF g -> live g n = true ->
  exists l, descendants_unsorted g n = AOk l /\
    NoDup (map snd l) /\ (forall x, In x (map snd l) <-> path g n x) /\ (forall r x, In (r, x) l -> r = rank_of g x).
Proof.
  intros W L. pose proof (descendants_unsorted_answers g n W) as NF.
  destruct (descendants_unsorted g n) as [l|er|] eqn:D; [|exfalso|congruence].
  - exists l. split; [reflexivity|]. apply (descendants_unsorted_spec g n l D).
  - unfold descendants_unsorted in D. rewrite L in D. cbn [negb] in D. destruct (desc_unsorted_loop _ _ _ _ _); discriminate.
Qed.

Theorem descendants_total g n : WF g -> live g n = true ->
  exists l, descendants g n = AOk l /\
    NoDup l /\ (forall x, In x l <-> path g n x) /\ StronglySorted (fun a b => rank_of g a < rank_of g b) l.
Proof.
  intros W L. pose proof (descendants_answers g n W) as NF.
  destruct (descendants g n) as [l|er|] eqn:D; [|exfalso|congruence].
  - exists l. split; [reflexivity|]. apply (descendants_spec g n l W D).
  - unfold descendants in D. rewrite L in D. cbn [negb] in D. destruct (desc_sorted_loop _ _ _ _ _); discriminate.
Qed.

End Fuel.
