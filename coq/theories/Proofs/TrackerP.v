(* Theorems about the tracker model: the recorder stores exactly the recorded kinds since the last build start with
   their positions as indices; the query helpers mean what they document; the composite forwards the identical stream. *)
From Coq Require Import List NArith ZArith.
From PieV Require Import Model.Build Model.Tracker.
From PieV Require Proofs.KeysP.
Import ListNotations.
Open Scope N_scope.

Definition recorded (e : event) : option (N -> tevent) :=
  match e with
  | EBuildStart => Some (fun _ => TBuildStart)
  | EBuildEnd => Some (fun _ => TBuildEnd)
  | ERequireStart t c => Some (TRequireStart (ktask t) c)
  | ERequireEnd t c st o => Some (TRequireEnd (ktask t) c st o)
  | EReadStart r c => Some (TReadStart (kres r) c)
  | EReadEnd r c st => Some (TReadEnd (kres r) c st)
  | EWriteStart r c => Some (TWriteStart (kres r) c)
  | EWriteEnd r c st => Some (TWriteEnd (kres r) c st)
  | EExecStart t => Some (TExecuteStart (ktask t))
  | EExecEnd t o => Some (TExecuteEnd (ktask t) o)
  | _ => None
  end.
Fixpoint fm (l : list event) : list (N -> tevent) :=
  match l with [] => [] | e :: tl => match recorded e with Some f => f :: fm tl | None => fm tl end end.
Fixpoint index_from (i : N) (l : list (N -> tevent)) : list tevent :=
  match l with [] => [] | f :: tl => f i :: index_from (i + 1) tl end.
Fixpoint since_last_bs (l : list event) : option (list event) :=
  match l with
  | [] => None
  | e :: tl => match since_last_bs tl with
               | Some x => Some x
               | None => match e with EBuildStart => Some (e :: tl) | _ => None end
               end
  end.

Lemma et_len_push s e : et_len (et_push s e) = et_len s + 1.
Proof. unfold et_len, et_push. cbn [et_events]. rewrite app_length, Nat2N.inj_add. reflexivity. Qed.

Lemma et_step_not_bs s e :
  e <> EBuildStart ->
  (recorded e = None /\ et_step s e = s) \/
  (exists f, recorded e = Some f /\ et_step s e = et_push s (f (et_len s))).
Proof.
  intros Hne. destruct e; try (left; split; reflexivity); try (right; eexists; split; reflexivity).
  congruence.
Qed.

Lemma et_step_clear s e : clear_on_build_start (et_step s e) = clear_on_build_start s.
Proof. destruct e; try reflexivity. destruct s as [evs []]; reflexivity. Qed.

Lemma et_step_index s e tl :
  e <> EBuildStart ->
  et_events (et_step s e) ++ index_from (et_len (et_step s e)) (fm tl) = et_events s ++ index_from (et_len s) (fm (e :: tl)).
Proof.
  intros Hne. cbn [fm]. destruct (et_step_not_bs s e Hne) as [[R E]|[f [R E]]]; rewrite R, E.
  - reflexivity.
  - rewrite et_len_push. cbn [et_push et_events index_from]. rewrite <- app_assoc. reflexivity.
Qed.

Lemma et_fold_spec l : forall s, clear_on_build_start s = true ->
  et_events (fold_left et_step l s) =
  match since_last_bs l with
  | Some suf => index_from 0 (fm suf)
  | None => et_events s ++ index_from (et_len s) (fm l)
  end /\ clear_on_build_start (fold_left et_step l s) = true.
Proof.
  induction l as [|e tl IH]; intros s Hc.
  - cbn. rewrite app_nil_r. split; [reflexivity|exact Hc].
  - cbn [fold_left since_last_bs].
    assert (Hc' : clear_on_build_start (et_step s e) = true) by (rewrite et_step_clear; exact Hc).
    destruct (IH (et_step s e) Hc') as [IHe IHc]. split; [|exact IHc].
    rewrite IHe. destruct (since_last_bs tl) as [suf|]; [reflexivity|].
    destruct e; try (apply et_step_index; discriminate).
    (* EBuildStart: the recorder is cleared *)
    cbn [et_step]. rewrite Hc. reflexivity.
Qed.

Theorem recorder_spec stream :
  et_events (et_run stream) =
  match since_last_bs stream with
  | Some suf => index_from 0 (fm suf)
  | None => index_from 0 (fm stream)
  end.
Proof.
  unfold et_run. destruct (et_fold_spec stream et_default eq_refl) as [H _]. rewrite H.
  destruct (since_last_bs stream); reflexivity.
Qed.

Theorem composite_forwards {S1 S2} (f1 : S1 -> event -> S1) (f2 : S2 -> event -> S2) l s1 s2 :
  fold_left (composite_step f1 f2) l (s1, s2) = (fold_left f1 l s1, fold_left f2 l s2).
Proof. revert s1 s2. induction l as [|e tl IH]; intros; cbn; [reflexivity|]. apply IH. Qed.

Lemma key_eqb_eq a b : key_eqb a b = true <-> a = b.
Proof. exact (KeysP.eq_any_spec a b). Qed.

Lemma key_eqb_refl k : key_eqb k k = true.
Proof. apply key_eqb_eq. reflexivity. Qed.

Theorem is_build_start_spec e : is_build_start e = true <-> e = TBuildStart.
Proof. split; [destruct e; try discriminate; reflexivity|intros ->; reflexivity]. Qed.

Theorem is_build_end_spec e : is_build_end e = true <-> e = TBuildEnd.
Proof. split; [destruct e; try discriminate; reflexivity|intros ->; reflexivity]. Qed.

Theorem is_execute_spec e : is_execute e = true <-> (exists k i, e = TExecuteStart k i) \/ (exists k o i, e = TExecuteEnd k o i).
Proof.
  split.
  - destruct e; try discriminate; intros _; [left|right]; eauto.
  - intros [[k [i ->]]|[k [o [i ->]]]]; reflexivity.
Qed.

Theorem is_execute_of_spec e k :
  is_execute_of e k = true <-> (exists i, e = TExecuteStart k i) \/ (exists o i, e = TExecuteEnd k o i).
Proof.
  split.
  - destruct e; try discriminate; cbn; intros H; apply key_eqb_eq in H; subst; [left|right]; eauto.
  - intros [[i ->]|[o [i ->]]]; apply key_eqb_refl.
Qed.

(* every matcher guards the event by its subject *)
Lemma key_guard_spec (k' k : key) (e e' : tevent) :
  (if key_eqb k' k then Some e else None) = Some e' <-> k' = k /\ e' = e.
Proof.
  destruct (key_eqb k' k) eqn:E.
  - apply key_eqb_eq in E. split; [intros H; inversion H; split; [exact E|reflexivity]|intros [_ ->]; reflexivity].
  - split; [discriminate|]. intros [-> _]. rewrite key_eqb_refl in E. discriminate.
Qed.
Ltac matcher_tac :=
  intros e k e'; split;
  [ destruct e; try discriminate; intros H; apply key_guard_spec in H; destruct H as [-> ->]; repeat eexists
  | intros H; decompose record H; subst; apply key_guard_spec; split; reflexivity ].

Theorem match_require_start_spec : forall e k e', match_require_start e k = Some e' <-> exists c i, e = TRequireStart k c i /\ e' = e.
Proof. matcher_tac. Qed.
Theorem match_require_end_spec : forall e k e', match_require_end e k = Some e' <-> exists c st o i, e = TRequireEnd k c st o i /\ e' = e.
Proof. matcher_tac. Qed.
Theorem match_read_start_spec : forall e k e', match_read_start e k = Some e' <-> exists c i, e = TReadStart k c i /\ e' = e.
Proof. matcher_tac. Qed.
Theorem match_read_end_spec : forall e k e', match_read_end e k = Some e' <-> exists c st i, e = TReadEnd k c st i /\ e' = e.
Proof. matcher_tac. Qed.
Theorem match_write_start_spec : forall e k e', match_write_start e k = Some e' <-> exists c i, e = TWriteStart k c i /\ e' = e.
Proof. matcher_tac. Qed.
Theorem match_write_end_spec : forall e k e', match_write_end e k = Some e' <-> exists c st i, e = TWriteEnd k c st i /\ e' = e.
Proof. matcher_tac. Qed.
Theorem match_execute_start_spec : forall e k e', match_execute_start e k = Some e' <-> exists i, e = TExecuteStart k i /\ e' = e.
Proof. matcher_tac. Qed.
Theorem match_execute_end_spec : forall e k e', match_execute_end e k = Some e' <-> exists o i, e = TExecuteEnd k o i /\ e' = e.
Proof. matcher_tac. Qed.

Theorem find_map_first {A} (f : tevent -> option A) l x :
  find_map f l = Some x <-> exists l1 e l2, l = l1 ++ e :: l2 /\ f e = Some x /\ forall e0, In e0 l1 -> f e0 = None.
Proof.
  split.
  - induction l as [|e tl IH]; cbn; [discriminate|]. destruct (f e) eqn:E; intros H.
    + exists [], e, tl. split; [reflexivity|]. split; [rewrite E; exact H|]. intros e0 [].
    + destruct (IH H) as [l1 [e1 [l2 [-> [Hf Hn]]]]]. exists (e :: l1), e1, l2. split; [reflexivity|]. split; [exact Hf|].
      intros e0 [<-|H0]; [exact E|exact (Hn e0 H0)].
  - intros [l1 [e [l2 [-> [Hf Hn]]]]]. induction l1 as [|a l1 IH]; cbn.
    + rewrite Hf. reflexivity.
    + rewrite (Hn a (or_introl eq_refl)). apply IH. intros e0 H0. apply Hn. right. exact H0.
Qed.
Theorem any_execute_spec s : any_execute s = true <-> exists e, In e (et_events s) /\ is_execute e = true.
Proof. unfold any_execute, et_any. apply existsb_exists. Qed.
Theorem one_execute_of_spec s k :
  one_execute_of s k = true <-> length (filter (fun e => match match_execute_start e k with Some _ => true | None => false end) (et_events s)) = 1%nat.
Proof. unfold one_execute_of, et_one. apply Nat.eqb_eq. Qed.
