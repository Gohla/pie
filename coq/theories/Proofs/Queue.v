(* The bottom-up queue: pop yields a member of maximal topological rank (the deepest dependency), and
   pop_least_task_with_dependency_from yields the maximal-rank member among src and its transitive dependencies; both depend
   on the set of queued tasks only (C16). *)
From Coq Require Import List NArith Bool Lia Permutation Sorted.
From PieV Require Import Model.Dag Model.Build Proofs.DagLib.
Import ListNotations.
Open Scope N_scope.


Lemma In_sort_queue w x : In x (sort_queue w) <-> In x (queue w).
Proof.
  unfold sort_queue. split; intros H.
  - eapply Permutation_in; [apply sort_by_perm|exact H].
  - eapply Permutation_in; [apply Permutation_sym, sort_by_perm|exact H].
Qed.

Lemma queue_pop_none w : queue_pop w = None -> queue w = [].
Proof.
  unfold queue_pop. destruct (rev (sort_queue w)) as [|y tl] eqn:R; [intros _|discriminate].
  destruct (queue w) as [|q tl] eqn:Q; [reflexivity|]. exfalso.
  apply (in_nil (a := q)). rewrite <- R. apply -> in_rev. apply In_sort_queue. rewrite Q. left. reflexivity.
Qed.

Theorem queue_pop_max w t w' :
  queue_pop w = Some (t, w') ->
  In t (queue w) /\
  (forall x, In x (queue w) -> rank_t w x <= rank_t w t) /\
  (forall x, In x (queue w') <-> In x (queue w) /\ x <> t) /\
  gr w' = gr w /\ outs w' = outs w /\ rstate w' = rstate w.
Proof.
  unfold queue_pop. destruct (rev (sort_queue w)) as [|t0 tl] eqn:Er; [discriminate|].
  intros H. inversion H; subst. clear H.
  assert (Hin : In t (sort_queue w)).
  { apply in_rev. rewrite Er. left. reflexivity. }
  split; [apply In_sort_queue; exact Hin|]. split.
  - intros x Hx. eapply (sorted_rev_head_max (rank_t w)); [apply sort_by_sorted|exact Er|].
    apply In_sort_queue. exact Hx.
  - split; [|repeat split; reflexivity].
    intros x. cbn [queue set_queue]. rewrite In_removeN, In_sort_queue. reflexivity.
Qed.

Lemma find_desc_max key (f : node -> bool) l t :
  StronglySorted (fun a b => key b <= key a) l -> find f l = Some t ->
  In t l /\ f t = true /\ forall x, In x l -> f x = true -> key x <= key t.
Proof.
  induction l as [|a tl IH]; intros Hs Hf; [discriminate|].
  cbn in Hf. inversion Hs as [|? ? Hs' Hall]; subst. destruct (f a) eqn:Efa.
  - inversion Hf; subst. split; [left; reflexivity|]. split; [exact Efa|].
    intros x [E|Hin] _; [subst; lia|]. rewrite Forall_forall in Hall. apply Hall. exact Hin.
  - destruct (IH Hs' Hf) as [A [B C]]. split; [right; exact A|]. split; [exact B|].
    intros x [E|Hin] Hfx; [rewrite <- E in Hfx; rewrite Efa in Hfx; discriminate|]. apply C; assumption.
Qed.

Definition eligible (w : world) (src d : task) : bool :=
  N.eqb src d || match contains_transitive_task_dependency w src d with Some true => true | _ => false end.

Lemma pop_least_from_eq w src :
  pop_least_from w src = match find (eligible w src) (rev (sort_queue w)) with
                         | None => None | Some t => Some (t, set_queue w (removeN t (sort_queue w))) end.
Proof. reflexivity. Qed.

Theorem pop_least_from_max w src t w' :
  pop_least_from w src = Some (t, w') ->
  In t (queue w) /\ eligible w src t = true /\
  (forall x, In x (queue w) -> eligible w src x = true -> rank_t w x <= rank_t w t) /\
  (forall x, In x (queue w') <-> In x (queue w) /\ x <> t) /\
  gr w' = gr w.
Proof.
  rewrite pop_least_from_eq. destruct (find _ _) as [t0|] eqn:Ef; [|discriminate].
  intros H. inversion H; subst. clear H.
  destruct (find_desc_max (rank_t w) (eligible w src) _ _ (sorted_rev_desc _ _ (sort_by_sorted (rank_t w) (queue w))) Ef) as [A [B C]].
  split; [apply In_sort_queue, in_rev; exact A|]. split; [exact B|]. split.
  - intros x Hx He. apply C; [|exact He]. apply in_rev. rewrite rev_involutive. apply In_sort_queue. exact Hx.
  - split; [|reflexivity]. intros x. cbn [queue set_queue]. rewrite In_removeN, In_sort_queue. reflexivity.
Qed.

Theorem pop_least_from_none w src :
  pop_least_from w src = None -> forall x, In x (queue w) -> eligible w src x = false.
Proof.
  rewrite pop_least_from_eq. destruct (find _ _) as [t0|] eqn:Ef; [discriminate|].
  intros _ x Hx. eapply find_none in Ef; [exact Ef|]. apply in_rev. rewrite rev_involutive. apply In_sort_queue. exact Hx.
Qed.

(* C16: the queue's Vec is re-sorted by unique topological ranks before every pop, so what is popped and what is left depend on
   the SET of queued tasks only, not on the order in which they were pushed *)
Lemma sort_queue_set_queue w q : sort_queue (set_queue w q) = sort_by (rank_t w) q.
Proof. reflexivity. Qed.

Lemma sort_queue_order_independent (w : world) (q' : list task) :
  Permutation (queue w) q' -> NoDup (map (rank_t w) (queue w)) -> sort_queue (set_queue w q') = sort_queue w.
Proof. intros Hp Hn. rewrite sort_queue_set_queue. symmetry. apply sort_by_order_independent; assumption. Qed.

Theorem queue_pop_order_independent (w : world) (q' : list task) :
  Permutation (queue w) q' -> NoDup (map (rank_t w) (queue w)) ->
  queue_pop (set_queue w q') = queue_pop w.
Proof.
  intros Hp Hn. unfold queue_pop. rewrite (sort_queue_order_independent w q' Hp Hn). destruct (rev (sort_queue w)) as [|t tl]; reflexivity.
Qed.

Theorem pop_least_from_order_independent (w : world) (src : task) (q' : list task) :
  Permutation (queue w) q' -> NoDup (map (rank_t w) (queue w)) ->
  pop_least_from (set_queue w q') src = pop_least_from w src.
Proof.
  intros Hp Hn. unfold pop_least_from. rewrite (sort_queue_order_independent w q' Hp Hn). reflexivity.
Qed.
