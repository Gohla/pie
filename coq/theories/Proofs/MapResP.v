(* C14: the map resource gives read-your-writes with per-type isolation; the equality checker's routes agree and it is
   consistent exactly when the current value (or absence) equals the stamped one. *)
From Coq Require Import List NArith ZArith Bool.
From PieV Require Import Model.MapRes.
From PieV Require Proofs.CheckersP.
Import ListNotations.
Open Scope N_scope.

(* tm_get/tm_remove/tm_set and al_get/al_remove/al_set are one association list, at values boxed and Z: the model's
   definitions are these at V := boxed and V := Z up to conversion *)
Section Assoc.
Variable V : Type.
Fixpoint aget (l : list (N * V)) (k : N) : option V :=
  match l with [] => None | (k', v) :: tl => if N.eqb k' k then Some v else aget tl k end.
Definition aremove (l : list (N * V)) (k : N) := filter (fun p => negb (N.eqb (fst p) k)) l.
Definition aset (l : list (N * V)) (k : N) (v : V) := aremove l k ++ [(k, v)].

Lemma aget_app l1 l2 k : aget (l1 ++ l2) k = match aget l1 k with Some v => Some v | None => aget l2 k end.
Proof. induction l1 as [|[k' v] tl IH]; cbn; [reflexivity|]. destruct (N.eqb k' k); [reflexivity|exact IH]. Qed.
Lemma aget_remove l k k' : aget (aremove l k) k' = if N.eqb k k' then None else aget l k'.
Proof.
  unfold aremove. induction l as [|[k0 v] tl IH]; cbn; [destruct (N.eqb k k'); reflexivity|].
  destruct (N.eqb_spec k0 k) as [->|Hne]; cbn; rewrite IH.
  - destruct (N.eqb k k'); reflexivity.
  - destruct (N.eqb_spec k0 k') as [->|_]; [|reflexivity].
    destruct (N.eqb_spec k k') as [->|_]; [destruct (Hne eq_refl)|reflexivity].
Qed.
Lemma aget_set l k v k' : aget (aset l k v) k' = if N.eqb k k' then Some v else aget l k'.
Proof.
  unfold aset. rewrite aget_app, aget_remove. cbn. destruct (N.eqb k k'); [reflexivity|].
  destruct (aget l k'); reflexivity.
Qed.
End Assoc.

Lemma tm_get_remove m r r' : tm_get (tm_remove m r) r' = if N.eqb r r' then None else tm_get m r'.
Proof. exact (aget_remove boxed m r r'). Qed.
Lemma tm_get_set m r b r' : tm_get (tm_set m r b) r' = if N.eqb r r' then Some b else tm_get m r'.
Proof. exact (aget_set boxed m r b r'). Qed.
Lemma al_get_remove l k k' : al_get (al_remove l k) k' = if N.eqb k k' then None else al_get l k'.
Proof. exact (aget_remove Z l k k'). Qed.
Lemma al_get_set l k v k' : al_get (al_set l k v) k' = if N.eqb k k' then Some v else al_get l k'.
Proof. exact (aget_set Z l k v k'). Qed.

Lemma rs_get_set_same m r s v : rs_get (rs_set m r s v) r s = Some v.
Proof. unfold rs_get, rs_set. rewrite tm_get_set, N.eqb_refl. cbn. rewrite N.eqb_refl. reflexivity. Qed.
Lemma rs_get_set_other m r r' s s' v : r <> r' -> rs_get (rs_set m r s v) r' s' = rs_get m r' s'.
Proof. intros H. unfold rs_get, rs_set. rewrite tm_get_set. apply N.eqb_neq in H. rewrite H. reflexivity. Qed.

(* the abstract value of key k of key type kt: what a read returns (a read never changes what later reads return) *)
Definition lookup (m : tymap) (kt : tyid) (k : N) : option Z :=
  match rs_get m kt (hm kt) with Some g => al_get g k | None => None end.

Lemma lookup_rs_set m kt g kt' k' :
  lookup (rs_set m kt (hm kt) g) kt' k' = if N.eqb kt kt' then al_get g k' else lookup m kt' k'.
Proof.
  unfold lookup. destruct (N.eqb_spec kt kt') as [<-|Hne]; [rewrite rs_get_set_same|rewrite rs_get_set_other by exact Hne]; reflexivity.
Qed.

Lemma global_map_spec m kt g m' : rs_get_or_set_default m kt (hm kt) = (g, m') ->
  (forall k, al_get g k = lookup m kt k) /\
  (forall kt' k', lookup m' kt' k' = lookup m kt' k') /\
  (forall g' kt' k', lookup (rs_set m' kt (hm kt) g') kt' k' = if N.eqb kt kt' then al_get g' k' else lookup m kt' k').
Proof.
  unfold rs_get_or_set_default. intros H.
  assert (A : forall k, lookup m kt k = match rs_get m kt (hm kt) with Some g0 => al_get g0 k | None => None end) by reflexivity.
  destruct (rs_get m kt (hm kt)) as [g0|]; inversion H; subst.
  - split; [intros k; rewrite A; reflexivity|]. split; [reflexivity|]. intros g' kt' k'. apply lookup_rs_set.
  - split; [intros k; rewrite A; reflexivity|]. split.
    + intros kt' k'. rewrite lookup_rs_set. destruct (N.eqb_spec kt kt') as [<-|_]; [rewrite A|]; reflexivity.
    + intros g' kt' k'. rewrite !lookup_rs_set. destruct (N.eqb kt kt'); reflexivity.
Qed.

Lemma map_read_spec m kt k : fst (map_read m kt k) = lookup m kt k /\
  forall kt' k', lookup (snd (map_read m kt k)) kt' k' = lookup m kt' k'.
Proof.
  unfold map_read. destruct (rs_get_or_set_default m kt (hm kt)) as [g m'] eqn:E.
  destruct (global_map_spec m kt g m' E) as [A [B _]]. split; [apply A|exact B].
Qed.

Theorem insert_lookup m kt k v kt' k' :
  lookup (map_insert m kt k v) kt' k' = if N.eqb kt kt' && N.eqb k k' then Some v else lookup m kt' k'.
Proof.
  unfold map_insert. destruct (rs_get_or_set_default m kt (hm kt)) as [g m'] eqn:E.
  destruct (global_map_spec m kt g m' E) as [A [_ C]]. rewrite C.
  destruct (N.eqb_spec kt kt') as [<-|_]; [|reflexivity]. rewrite al_get_set, A. reflexivity.
Qed.

Theorem remove_lookup m kt k kt' k' :
  lookup (map_remove m kt k) kt' k' = if N.eqb kt kt' && N.eqb k k' then None else lookup m kt' k'.
Proof.
  unfold map_remove. destruct (rs_get_or_set_default m kt (hm kt)) as [g m'] eqn:E.
  destruct (global_map_spec m kt g m' E) as [A [_ C]]. rewrite C.
  destruct (N.eqb_spec kt kt') as [<-|_]; [|reflexivity]. rewrite al_get_remove, A. reflexivity.
Qed.

Theorem typed_access_isolated m r s r' s' :
  r <> r' -> rs_get (snd (rs_get_or_set_default m r s)) r' s' = rs_get m r' s'.
Proof.
  intros Hne. unfold rs_get_or_set_default. destruct (rs_get m r s); cbn; [reflexivity|].
  apply rs_get_set_other. exact Hne.
Qed.

Lemma opt_eqb_spec a b : opt_eqb a b = true <-> a = b.
Proof. exact (CheckersP.eq_opt_spec Z.eqb Z.eqb_eq a b). Qed.

Theorem routes_agree m kt k :
  let '(s1, m1) := meq_stamp m kt k in
  let '(rd, m2) := map_read m1 kt k in
  let '(s3, m3) := meq_stamp_writer m2 kt k in
  s1 = lookup m kt k /\ meq_stamp_reader rd = lookup m kt k /\ s3 = lookup m kt k.
Proof.
  unfold meq_stamp, meq_stamp_writer, meq_stamp_reader.
  destruct (map_read m kt k) as [s1 m1] eqn:E1.
  destruct (map_read m1 kt k) as [rd m2] eqn:E2.
  destruct (map_read m2 kt k) as [s3 m3] eqn:E3.
  destruct (map_read_spec m kt k) as [A1 B1]. rewrite E1 in A1, B1. cbn in A1, B1.
  destruct (map_read_spec m1 kt k) as [A2 B2]. rewrite E2 in A2, B2. cbn in A2, B2.
  destruct (map_read_spec m2 kt k) as [A3 B3]. rewrite E3 in A3, B3. cbn in A3, B3.
  repeat split; congruence.
Qed.

Theorem check_decides m kt k st :
  fst (meq_check m kt k st) = false <-> lookup m kt k = st.
Proof.
  unfold meq_check. destruct (map_read m kt k) as [v m'] eqn:E. cbn.
  destruct (map_read_spec m kt k) as [A _]. rewrite E in A. cbn in A. subst v.
  rewrite negb_false_iff. apply opt_eqb_spec.
Qed.
