(* What the execution-stack argument (ExecInv.v) gives for the require of a top-down session: every task it executes was not yet
   consistent and is consistent when the require returns, the only aborts are user-level ones or the model's ABug 4 (excluded
   in NoBug4All.v), and J holds again in the store an abort leaves behind; Final.v draws the conclusions for top-down
   histories (C02, C07, C19).  Section TdPass is the walk over check_deps, the fuel and Session::require that the passes K, CF
   and Q share; Section Lift carries what the two session operations keep over to sessions and histories. *)
From Coq Require Import List ZArith.
From PieV Require Import Model.Dag Model.Build Proofs.DagLib Proofs.Steps Proofs.StoreInv Proofs.ExecInv.
Import ListNotations.
Open Scope N_scope.

Definition J (w : world) : Prop := StoreOK w /\ Inv2 w.
Lemma J_init : J init_world.
Proof. split; [exact GOK_empty|]. split; [intros t d X; discriminate|intros t X; discriminate]. Qed.
Lemma J_new_session w : J w -> J (new_session w).
Proof. intros [H [N C]]. split; [exact H|]. split; [exact N|intros t X; discriminate]. Qed.
Lemma J_set_content w r v : J w -> J (set_content w r v).
Proof. intros X. destruct v; exact X. Qed.
Lemma J_set_env w f : J w -> J (set_env w f). Proof. intros X. exact X. Qed.

Definition good_res (r : sres) : Prop := match r with RAbort k => user_abort k | _ => True end.

Section Z.
Variable RC : rcid -> rchecker.
Variable OC : ocid -> ochecker.
Variable P : task -> prog.
Variable always : ocid.

Lemma chain_nil w : Chain w []. Proof. split; [constructor|exact I]. Qed.

(* a session's require is make_task_consistent between two quiet steps: from top_start (build and require announced, the
   root's node there, no current task, so nothing is reserved) to top_end of the store it returns (no dependency is recorded) *)
Definition top_start (w : world) (t : task) : world :=
  get_or_create_task_node (emit (emit (set_cur w None) EBuildStart) (ERequireStart t always)) t.
Definition top_end (w4 : world) (t : task) (o : Z) : world :=
  emit (emit w4 (ERequireEnd t always (oc_stamp (OC always) o) o)) EBuildEnd.
Lemma session_require_run fuel w t : StoreOK w -> Inv2 w ->
  (exists seg, Post [] [] [] w (top_start w t) seg) /\ StoreOK (top_start w t) /\ Inv2 (top_start w t) /\ cur (top_start w t) = None /\
  session_require RC OC P always fuel w t =
    match make_consistent_td RC OC P fuel (top_start w t) t with
    | Done o w4 => Done o (top_end w4 t o) | Abort k w4 => Abort k w4 | OutOfFuel => OutOfFuel
    end.
Proof.
  intros H J0.
  assert (P2 : Post [] [] [] w (top_start w t) (([] ++ [EBuildStart]) ++ [ERequireStart t always] ++ [])).
  { eapply post_seq; [eapply (post_seq _ _ _ w (set_cur w None)); [apply post_quiet; try reflexivity; [exact H|tauto]|apply post_emit; [exact H|exact I]]|].
    eapply post_seq; [apply post_emit; [exact H|exact I]|apply goc_task_post; exact H]. }
  assert (Hc2 : cur (top_start w t) = None) by (unfold top_start, get_or_create_task_node; destruct (live _ _); reflexivity).
  split; [eexists; exact P2|]. split; [apply (po_ok _ _ _ _ _ _ P2)|]. split; [apply (po_inv _ _ _ _ _ _ P2 J0)|]. split; [exact Hc2|].
  unfold session_require, require_td, require_with. fold (top_start w t).
  unfold reserve_require_dependency. rewrite Hc2. cbn [bind].
  pose proof (make_consistent_td_spec RC OC P fuel (top_start w t) t [] (po_ok _ _ _ _ _ _ P2) (po_inv _ _ _ _ _ _ P2 J0) (chain_nil _) I) as M.
  destruct (make_consistent_td RC OC P fuel (top_start w t) t) as [o w4|k w4|]; cbn [bind okP] in *; [|reflexivity|reflexivity].
  destruct M as [_ [Hc4 _]]. unfold update_require_dependency. cbn [cur emit]. rewrite Hc4, Hc2. reflexivity.
Qed.

Theorem session_require_spec fuel w t : StoreOK w -> Inv2 w ->
  okP [] [] [] w (session_require RC OC P always fuel w t) (fun o w' => memN t (consistent w') = true /\ get_task_output w' t = Some o).
Proof.
  intros H J0. destruct (session_require_run fuel w t H J0) as [[s2 P2] [H2 [J2 [_ ->]]]]. eapply okP_pre; [exact P2|].
  eapply holds_bind; [exact (make_consistent_td_spec RC OC P fuel (top_start w t) t [] H2 J2 (chain_nil _) I)|]. intros o w4 _ [[s4 P4] [_ X]].
  split; [|exact X]. eexists.
  eapply post_seq; [exact P4|]. eapply post_seq; apply post_emit; try exact I; apply (po_ok _ _ _ _ _ _ P4).
Qed.

Fixpoint td_only (ops : list sop) : Prop :=
  match ops with [] => True | SRequire _ :: tl => td_only tl | SBottomUp _ :: _ => False end.

(* every executed task was inconsistent (not yet checked or executed in this session) when the operation started, and a
   require that returns leaves every executed task consistent, so that it is not executed again in the session *)
Theorem session_require_execs fuel w t : J w ->
  match session_require RC OC P always fuel w t with
  | Done _ w' => J w' /\ exists seg, trace w' = rev seg ++ trace w /\ NoDup (execs seg) /\
                   forall x, In x (execs seg) -> memN x (consistent w) = false /\ memN x (consistent w') = true
  | Abort k w' => k = ABug 4 \/ (user_abort k /\ J w' /\ exists seg, trace w' = rev seg ++ trace w /\ NoDup (execs seg) /\
                   forall x, In x (execs seg) -> memN x (consistent w) = false)
  | OutOfFuel => True
  end.
Proof.
  intros [H J0]. eapply holds_mono; [exact (session_require_spec fuel w t H J0)| |].
  - intros x w1 _ [[s1 [A1 A2 A3 A4 A5 A6 A7 A8 A9 A10 A11 A12 A13]] _]. split; [split; [exact A1|apply A13; exact J0]|].
    exists s1. split; [exact A5|]. split; [exact A6|].
    intros y Y. split; [apply (A7 y Y)|]. destruct (A9 y Y) as [Z|[]]. exact Z.
  - intros k w1 _ [->|[U [s1 [A1 A2 A3 A4 A5]]]]; [left; reflexivity|right]. split; [exact U|]. split; [split; [exact A1|apply A5; exact J0]|].
    exists s1. split; [exact A2|]. split; [exact A3|]. intros y Y. apply (A4 y Y).
Qed.

Fixpoint td_hist (h : list step) : Prop :=
  match h with
  | [] => True
  | HSession ops :: tl => td_only ops /\ td_hist tl
  | _ :: tl => td_hist tl
  end.

End Z.

(* A pass over the top-down interpreter, on top of MCspec, which supplies stack, store invariants and frames at every call.
   Outside task bodies the interpreter only keeps books (events, errors, node creation, marking): no dependency list, output
   or content changes and the consistent set only grows; the store stands Still.  A pass says what it assumes of the world
   before a call (A), what it shows of a call that returns (R, relative to the stack), that aborts (RA) or that runs out of
   fuel (F), and of which calls it speaks (g: a bound on the fuel, or nothing).  It owes the Laws and the execution of one task,
   given the claim for nested calls.  Instances: K (Cert.v), CF (Stable.v), Q (NoAbort.v). *)
Definition Still (w w' : world) : Prop :=
  (forall n, kids_of (gr w') n = kids_of (gr w) n) /\ (forall u v, get_edata (gr w') u v = get_edata (gr w) u v) /\
  outs w' = outs w /\ rstate w' = rstate w /\ cons_mono w w'.
Lemma still_same w w' : gr w' = gr w -> outs w' = outs w -> rstate w' = rstate w -> consistent w' = consistent w -> Still w w'.
Proof. intros G O R C. unfold Still, cons_mono. rewrite G, O, R, C. repeat split. intros x X; exact X. Qed.
Lemma still_goc w n : Still w (goc w n).
Proof. destruct (goc_spec w n) as [g [-> [K [Ed _]]]]. split; [exact K|]. split; [exact Ed|]. repeat split. intros x X; exact X. Qed.
Lemma still_goc_task w t : Still w (get_or_create_task_node w t). Proof. exact (still_goc w (tn t)). Qed.
Lemma still_mark w t : Still w (mark_consistent w t).
Proof. repeat split. intros x X. unfold mark_consistent. cbn [consistent set_consistent]. rewrite memN_cons, X. apply Bool.orb_true_r. Qed.

Section TdPass.
Variable RC : rcid -> rchecker.
Variable OC : ocid -> ochecker.
Variable P : task -> prog.
Variable A : world -> Prop.
Variable R : list task -> world -> world -> Prop.
Variable RA : akind -> world -> Prop.
Variable F : Prop.
Variable g : nat -> task -> Prop.

Definition okX {T} (S : list task) (w : world) (m : outcome T) : Prop :=
  match m with Done _ w' => R S w w' | Abort k w' => RA k w' | OutOfFuel => F end.
Definition TdMC (f : nat) (mc : world -> task -> outcome Z) : Prop :=
  forall w t S, StoreOK w -> Inv2 w -> Chain w S -> entry_ok w S t -> A w -> g f t -> okX S w (mc w t).

Record Laws : Prop := mkLaws {
  l_A : forall S w w', A w -> R S w w' -> A w';
  l_trans : forall S w1 w2 w3, R S w1 w2 -> R S w2 w3 -> R S w1 w3;
  l_still : forall S w w', A w -> Still w w' -> R S w w';
  l_weaken : forall S t w w', R (t :: S) w w' -> R S w w';
  l_zero : forall t, g 0 t -> F;
  l_dep : forall f w t x, A w -> edge w t x -> g (Datatypes.S f) t -> g f x
}.
Hypothesis HL : Laws.
Let R_A := l_A HL. Let R_trans := l_trans HL. Let R_still := l_still HL. Let R_weaken := l_weaken HL.
Let g_zero := l_zero HL. Let g_dep := l_dep HL.

Lemma okX_pre {T} S w w1 (m : outcome T) : R S w w1 -> okX S w1 m -> okX S w m.
Proof. intros X. destruct m; cbn; [apply R_trans; exact X|trivial|trivial]. Qed.
Lemma okX_bind {T U} S w (m : outcome T) (k : T -> world -> outcome U) :
  okX S w m -> (forall a w1, m = Done a w1 -> okX S w1 (k a w1)) -> okX S w (bind m k).
Proof. destruct m as [a w1| |]; cbn [bind]; [|trivial|trivial]. intros X Y. eapply okX_pre; [exact X|apply Y; reflexivity]. Qed.

Lemma check_deps_X f mc t S : MCspec mc -> TdMC f mc -> g (Datatypes.S f) t ->
  forall ds w, StoreOK w -> Inv2 w -> Chain w (t :: S) -> (forall d, In d ds -> dep_ok w t d) -> A w ->
  okX (t :: S) w (check_deps RC OC mc ds w).
Proof.
  intros HM HX Hg. induction ds as [|d tl IH]; intros w H J0 C HE Aw; cbn [check_deps]; [apply R_still; [exact Aw|apply still_same; reflexivity]|].
  destruct (HE d (or_introl eq_refl)) as [dp [-> [NRs HE1]]].
  assert (HE' : forall w', kids_of (gr w') (tn t) = kids_of (gr w) (tn t) -> forall d, In d tl -> dep_ok w' t d).
  { intros w' Kk. apply (dep_ok_frame w w' t tl Kk). intros d Hd. apply HE. right. exact Hd. }
  assert (Res : forall r c st, okX (t :: S) w (check_deps RC OC mc (Some (DRead r c st) :: tl) w)).
  { intros r c st. cbn [check_deps]. unfold check_resource_td. cbv zeta.
    set (w1 := emit w (ECheckResStart r c st)).
    set (xx := rc_check (RC c) (env w1) r (get_content w1 r) st).
    set (w2 := emit w1 (ECheckResEnd r c st xx)).
    assert (R2 : forall w', gr w' = gr w2 -> outs w' = outs w2 -> rstate w' = rstate w2 -> consistent w' = consistent w2 -> R (t :: S) w w').
    { intros w' G O Rs Co. apply R_still; [exact Aw|apply still_same; assumption]. }
    destruct xx as [| |e]; cbv iota beta; [|apply R2; reflexivity|apply R2; reflexivity].
    eapply okX_pre; [apply (R2 w2); reflexivity|]. apply IH; [exact H|exact J0|exact (chain_same w w2 _ eq_refl C)|apply HE'; reflexivity|apply (R_A _ _ _ Aw (R2 w2 eq_refl eq_refl eq_refl eq_refl))]. }
  destruct dp as [|x c st|r c st|r c st]; [congruence| |exact (Res r c st)|exact (Res r c st)].
  set (w1 := emit w (ECheckTaskStart x c st)).
  assert (P1 : Post (t :: S) [] [] w w1 [ECheckTaskStart x c st]) by (apply post_emit; [exact H|exact I]).
  assert (R1 : R (t :: S) w w1) by (apply R_still; [exact Aw|apply still_same; reflexivity]).
  assert (C1 : Chain w1 (t :: S)) by (apply (chain_post_all w w1 _ _ _ C P1)).
  assert (E1 : entry_ok w1 (t :: S) x) by (cbn; apply (HE1 x c st eq_refl)).
  pose proof (HM w1 x (t :: S) H (po_inv _ _ _ _ _ _ P1 J0) C1 E1) as M.
  pose proof (HX w1 x (t :: S) H (po_inv _ _ _ _ _ _ P1 J0) C1 E1 (R_A _ _ _ Aw R1) (g_dep f w t x Aw (HE1 x c st eq_refl) Hg)) as MX.
  eapply okX_pre; [exact R1|]. apply okX_bind; [exact MX|]. intros o w2 Eq. rewrite Eq in M, MX. cbn [okX okP] in M, MX.
  destruct M as [[s2 P2] _]. pose proof (R_A _ _ _ (R_A _ _ _ Aw R1) MX) as A2.
  set (w3 := emit w2 (ECheckTaskEnd x c st (negb (oc_check (OC c) o st)))).
  assert (R3 : R (t :: S) w2 w3) by (apply R_still; [exact A2|apply still_same; reflexivity]).
  destruct (oc_check (OC c) o st); [|exact R3].
  eapply okX_pre; [exact R3|]. apply IH.
  - apply (po_ok _ _ _ _ _ _ P2).
  - apply (po_inv _ _ _ _ _ _ P2). apply (po_inv _ _ _ _ _ _ P1 J0).
  - exact (chain_same w2 w3 _ eq_refl (chain_post_all w1 w2 (t :: S) [] s2 C1 P2)).
  - apply HE'. change (gr w3) with (gr w2). apply (po_frame _ _ _ _ _ _ P2). left. reflexivity.
  - exact (R_A _ _ _ A2 R3).
Qed.

Hypothesis X_exec : forall f t S w, TdMC f (make_consistent_td RC OC P f) -> Top t S w -> A w -> g (Datatypes.S f) t ->
  okX S w (execute_with RC OC P (require_with OC (make_consistent_td RC OC P f)) w t).

Theorem make_consistent_td_X fuel : TdMC fuel (make_consistent_td RC OC P fuel).
Proof.
  induction fuel as [|f IH]; intros w t S H J0 C E Aw Hg; [exact (g_zero t Hg)|].
  destruct (mc_course RC OC P f w t S (make_consistent_td_spec RC OC P f) H J0 C E) as [_ MC]. set (w0 := get_or_create_task_node w t) in *.
  assert (R0 : R S w w0) by (apply R_still; [exact Aw|apply still_goc_task]). pose proof (R_A _ _ _ Aw R0) as A0. eapply okX_pre; [exact R0|].
  assert (EM : forall w', Top t S w' -> A w' -> okX S w' (exec_mark RC OC P (require_with OC (make_consistent_td RC OC P f)) w' t)).
  { intros w' T' A6. pose proof (X_exec f t S w' IH T' A6 Hg) as X. apply okX_bind; [exact X|]. intros o w2 Eq.
    rewrite Eq in X. apply R_still; [exact (R_A _ _ _ A6 X)|apply still_mark]. }
  destruct (memN t (consistent w0)); destruct (get_task_output w0 t) as [o0|].
  - rewrite MC. apply R_still; [exact A0|apply still_same; reflexivity].
  - destruct MC.
  - destruct MC as [T0 [HE MC]].
    pose proof (check_deps_X f _ t S (make_consistent_td_spec RC OC P f) IH Hg (deps_of_task w0 t) w0 (top_ok _ _ _ T0) (top_inv _ _ _ T0) (top_chain _ _ _ T0) HE A0) as CX.
    destruct (check_deps RC OC (make_consistent_td RC OC P f) (deps_of_task w0 t) w0) as [ok w1|k w1|]; [|rewrite MC; exact CX|rewrite MC; exact CX].
    destruct MC as [_ [T1 [_ ->]]]. apply R_weaken in CX. pose proof (R_A _ _ _ A0 CX) as A1. eapply okX_pre; [exact CX|].
    destruct ok; [apply R_still; [exact A1|apply still_mark]|apply EM; assumption].
  - destruct MC as [T0 ->]. apply EM; assumption.
Qed.

Variable always : ocid.

Theorem session_require_X fuel w t : StoreOK w -> Inv2 w -> A w -> g fuel t -> okX [] w (session_require RC OC P always fuel w t).
Proof.
  intros H J0 Aw Hg. destruct (session_require_run RC OC P always fuel w t H J0) as [_ [H2 [J2 [_ ->]]]].
  assert (R1 : R [] w (emit (emit (set_cur w None) EBuildStart) (ERequireStart t always))) by (apply R_still; [exact Aw|apply still_same; reflexivity]).
  assert (R2 : R [] w (top_start always w t)) by (eapply R_trans; [exact R1|apply R_still; [exact (R_A _ _ _ Aw R1)|apply still_goc_task]]).
  eapply okX_pre; [exact R2|].
  pose proof (make_consistent_td_X fuel (top_start always w t) t [] H2 J2 (chain_nil _) I (R_A _ _ _ Aw R2) Hg) as MX.
  destruct (make_consistent_td RC OC P fuel (top_start always w t) t) as [o w4|k w4|]; cbn [okX] in *; [|exact MX|exact MX].
  eapply R_trans; [exact MX|]. apply R_still; [exact (R_A _ _ _ (R_A _ _ _ Aw R2) MX)|apply still_same; reflexivity].
Qed.
End TdPass.

(* SI holds while a session runs, HI between sessions and after an aborted one; rok: the results that may occur; Pop fuel: the
   operations that the sessions consist of (top-down sessions: requires only; requires below the fuel). *)
Definition res_ok (ga : akind -> Prop) (r : sres) : Prop := match r with RAbort k => ga k | _ => True end.
Definition is_req (o : sop) : Prop := match o with SRequire _ => True | SBottomUp _ => False end.
Lemma td_only_req ops : td_only ops -> Forall is_req ops.
Proof. induction ops as [|[t|ch] tl IH]; cbn; intros X; [constructor|constructor; [exact I|apply IH; exact X]|destruct X]. Qed.

Section Lift.
Variable RC : rcid -> rchecker.
Variable OC : ocid -> ochecker.
Variable P : task -> prog.
Variable always : ocid.
Variables HI SI : world -> Prop.
Variable rok : sres -> Prop.
Variable Pop : nat -> sop -> Prop.

Definition sesO {A} (m : outcome A) : Prop :=
  match m with Done _ w' => SI w' | Abort k w' => rok (RAbort k) /\ HI w' | OutOfFuel => rok RFuel end.
Definition step_ok (fuel : nat) (s : step) : Prop := match s with HSession ops => Forall (Pop fuel) ops | _ => True end.

Hypothesis rok_done : forall x, rok (RDone x).
Hypothesis SI_HI : forall w, SI w -> HI w.
Hypothesis Hreq : forall fuel w t, Pop fuel (SRequire t) -> SI w -> sesO (session_require RC OC P always fuel w t).
Hypothesis Hbu : forall fuel w ch, Pop fuel (SBottomUp ch) -> SI w -> sesO (session_bottom_up RC OC P fuel w ch).

Lemma run_sop_lift fuel w o : Pop fuel o -> SI w ->
  match run_sop RC OC P always fuel w o with (RDone _, w') => SI w' | (r, w') => rok r /\ HI w' end.
Proof.
  intros Ho Hw. destruct o as [t|ch]; cbn [run_sop].
  - pose proof (Hreq fuel w t Ho Hw) as X. destruct (session_require RC OC P always fuel w t); [exact X|exact X|split; [exact X|apply SI_HI; exact Hw]].
  - pose proof (Hbu fuel w ch Ho Hw) as X. destruct (session_bottom_up RC OC P fuel w ch); [exact X|exact X|split; [exact X|apply SI_HI; exact Hw]].
Qed.

Lemma run_session_lift fuel ops : forall w, Forall (Pop fuel) ops -> SI w ->
  Forall rok (fst (run_session RC OC P always fuel w ops)) /\ HI (snd (run_session RC OC P always fuel w ops)).
Proof.
  induction ops as [|o tl IH]; intros w Fo Hw; cbn [run_session]; [split; [constructor|apply SI_HI; exact Hw]|].
  inversion Fo as [|o' tl' Ho Ftl]; subst.
  pose proof (run_sop_lift fuel w o Ho Hw) as X. destruct (run_sop RC OC P always fuel w o) as [[x|k|] w'].
  - destruct (IH w' Ftl X) as [F H']. destruct (run_session RC OC P always fuel w' tl) as [rs w'']. split; [constructor; [apply rok_done|exact F]|exact H'].
  - split; [constructor; [apply X|constructor]|apply X].
  - split; [constructor; [apply X|constructor]|apply X].
Qed.

Hypothesis Hnew : forall w, HI w -> SI (new_session w).
Hypothesis Hedit : forall w r v, HI w -> HI (set_content w r v).
Hypothesis Henv : forall w e, HI w -> HI (set_env w e).

Lemma run_history_lift fuel h : forall w, Forall (step_ok fuel) h -> HI w ->
  Forall (Forall rok) (fst (run_history RC OC P always fuel w h)) /\ HI (snd (run_history RC OC P always fuel w h)).
Proof.
  induction h as [|s tl IH]; intros w Fh Hw; cbn [run_history]; [split; [constructor|exact Hw]|].
  inversion Fh as [|s' tl' Hs Ftl]; subst.
  assert (X : Forall rok (fst (run_step RC OC P always fuel w s)) /\ HI (snd (run_step RC OC P always fuel w s))).
  { destruct s as [r v|e|ops]; cbn [run_step fst snd].
    - split; [constructor|apply Hedit; exact Hw].
    - split; [constructor|apply Henv; exact Hw].
    - apply run_session_lift; [exact Hs|apply Hnew; exact Hw]. }
  destruct (run_step RC OC P always fuel w s) as [r w']. destruct X as [F1 H1].
  destruct (IH w' Ftl H1) as [F2 H2]. destruct (run_history RC OC P always fuel w' tl) as [rs w'']. split; [constructor; assumption|exact H2].
Qed.
End Lift.

Lemma td_hist_req fuel h : td_hist h -> Forall (step_ok (fun _ => is_req) fuel) h.
Proof.
  induction h as [|[r v|f|ops] tl IH]; cbn; intros X; [constructor|constructor; [exact I|apply IH; exact X]..|].
  constructor; [apply td_only_req; apply X|apply IH; apply X].
Qed.

