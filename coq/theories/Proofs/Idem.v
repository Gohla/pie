(* C02, idempotence: a second session with nothing changed executes nothing and returns the same outputs.
   ValidX X w: every task of X has an output and all its recorded dependencies are accepted by their own checkers in the
   current state, requires pointing into X.  From such a world make_task_consistent of a task of X returns its cached output
   after validating (no execution, no change of store, outputs, resources); the invariant VC of Valid.v gives ValidX when
   the session after a returning session of the static class starts (VC_ValidX: for the tasks that session made consistent). *)
From Coq Require Import List ZArith Bool Lia.
From PieV Require Import Model.Dag Model.Build Proofs.Steps Proofs.Local Proofs.DagLib Proofs.DagWF Proofs.StoreInv Proofs.ExecInv Proofs.ExecSession
  Proofs.Cert Proofs.Stable Proofs.NoAbort Proofs.Valid.
Import ListNotations.
Open Scope N_scope.

Section I.
Variable gen : res -> option task.
Variable ord : task -> nat.
Variable RC : rcid -> rchecker.
Variable OC : ocid -> ochecker.
Variable P : task -> prog.
Notation mc := (make_consistent_td RC OC P).

Definition DepOKX (X : list task) (w : world) (dp : dep) : Prop :=
  match dp with
  | DReserved => False
  | DRequire y c st => In y X /\ exists oy, get_task_output w y = Some oy /\ oc_check (OC c) oy st = true
  | DRead r c st | DWrite r c st => rc_check (RC c) (env w) r (get_content w r) st = Consistent
  end.
Definition ValidX (X : list task) (w : world) : Prop :=
  forall x, In x X -> (exists o, get_task_output w x = Some o) /\ forall d dp, row w x d = Some dp -> DepOKX X w dp.

Record Quiet (w w' : world) : Prop := mkQuiet {
  qt_rows : forall a, kidsT w' a = kidsT w a /\ forall d, row w' a d = row w a d;
  qt_outs : outs w' = outs w;
  qt_content : forall r, get_content w' r = get_content w r;
  qt_env : env w' = env w;
  qt_ok : StoreOK w';
  qt_seg : exists seg, trace w' = rev seg ++ trace w /\ execs seg = [];
  qt_mono : cons_mono w w'
}.
Lemma quiet_refl w : StoreOK w -> Quiet w w.
Proof. intros H. constructor; try reflexivity; [intros a; split; reflexivity|exact H|exists []; split; reflexivity|intros x X; exact X]. Qed.
Lemma quiet_trans w1 w2 w3 : Quiet w1 w2 -> Quiet w2 w3 -> Quiet w1 w3.
Proof.
  intros [A1 A2 A3 A4 A5 [sa [A6 A6']] A7] [B1 B2 B3 B4 B5 [sb [B6 B6']] B7]. constructor.
  - intros a. destruct (A1 a) as [X Y]. destruct (B1 a) as [X' Y']. split; [congruence|intros d; rewrite Y', Y; reflexivity].
  - congruence. - intros r. rewrite B3. apply A3. - congruence. - exact B5.
  - exists (sa ++ sb). split; [rewrite B6, A6, rev_app_distr, app_assoc; reflexivity|rewrite execs_app, A6', B6'; reflexivity].
  - intros x X. apply B7, A7. exact X.
Qed.
Lemma quiet_struct w w' : gr w' = gr w -> outs w' = outs w -> rstate w' = rstate w -> env w' = env w -> StoreOK w ->
  (exists seg, trace w' = rev seg ++ trace w /\ execs seg = []) -> cons_mono w w' -> Quiet w w'.
Proof.
  intros G O R E H T M. constructor; try assumption.
  - intros a. unfold kidsT, row. rewrite G. split; reflexivity.
  - intros r. unfold get_content. rewrite R. reflexivity.
  - unfold StoreOK. rewrite G. exact H.
Qed.
Lemma quiet_goc_task w t : StoreOK w -> Quiet w (get_or_create_task_node w t).
Proof.
  intros H. pose proof (goc_task_ok w t H) as H'. pose proof (goc_task_row w t) as R. destruct (goc_task_gr w t) as [g E]. rewrite E in *.
  constructor; [exact R|reflexivity|reflexivity|reflexivity|exact H'|exists []; split; reflexivity|intros x X; exact X].
Qed.
Lemma quiet_emit w e : StoreOK w -> noexec e -> Quiet w (emit w e).
Proof.
  intros H N. apply quiet_struct; try reflexivity; [exact H| |intros x X; exact X].
  exists [e]. split; [reflexivity|]. destruct e; try reflexivity. destruct N.
Qed.

Lemma validx_quiet X w w' : Quiet w w' -> ValidX X w -> ValidX X w'.
Proof.
  intros Qt V x Hx. destruct (V x Hx) as [[o Ho] RV]. split.
  - exists o. unfold get_task_output. rewrite (qt_outs _ _ Qt). exact Ho.
  - intros d dp R'. rewrite (proj2 (qt_rows _ _ Qt x)) in R'. specialize (RV d dp R').
    destruct dp as [|y c st|r c st|r c st]; cbn [DepOKX] in *; try exact RV.
    + destruct RV as [A [oy [B C]]]. split; [exact A|]. exists oy. split; [unfold get_task_output; rewrite (qt_outs _ _ Qt); exact B|exact C].
    + rewrite (qt_env _ _ Qt), (qt_content _ _ Qt). exact RV.
    + rewrite (qt_env _ _ Qt), (qt_content _ _ Qt). exact RV.
Qed.

Definition MarksIn (X : list task) (w w' : world) : Prop :=
  forall c, memN c (consistent w') = true -> memN c (consistent w) = true \/ In c X.
Lemma marksin_same X w w' : consistent w' = consistent w -> MarksIn X w w'.
Proof. intros E c Hc. left. rewrite <- E. exact Hc. Qed.
Lemma marksin_trans X a b c : MarksIn X a b -> MarksIn X b c -> MarksIn X a c.
Proof. intros A B x Hx. destruct (B x Hx) as [Y|Y]; [exact (A x Y)|right; exact Y]. Qed.

Definition IDEM (f : nat) : Prop :=
  forall X w t, ValidX X w -> In t X -> StoreOK w -> Q gen ord w -> (ord t < f)%nat ->
    exists o w', mc f w t = Done o w' /\ get_task_output w t = Some o /\ Quiet w w' /\ cur w' = cur w /\ MarksIn X w w'.

Lemma idem_chk f X t : IDEM f -> (ord t <= f)%nat ->
  forall l w, ValidX X w -> StoreOK w -> Q gen ord w -> In t X ->
    (forall d, In d l -> In d (kidsT w t)) ->
    exists w', check_deps RC OC (mc f) (map (row w t) l) w = Done true w' /\ Quiet w w' /\ cur w' = cur w /\ MarksIn X w w'.
Proof.
  intros IH Hf. induction l as [|d l' IHl]; intros w V H Hq Ht Hl; cbn [map check_deps].
  - exists w. split; [reflexivity|split; [apply quiet_refl; exact H|split; [reflexivity|apply marksin_same; reflexivity]]].
  - assert (Kd : In d (kidsT w t)) by (apply Hl; left; reflexivity).
    pose proof Kd as Ed. apply (wf_edata _ (proj1 H)) in Ed. unfold kidsT in Ed.
    destruct (row w t d) as [dp|] eqn:R; [|unfold row in R; contradiction].
    pose proof (proj2 (V t Ht) d dp R) as D.
    assert (NEXT : forall w1, Quiet w w1 -> cur w1 = cur w -> MarksIn X w w1 ->
              exists w', check_deps RC OC (mc f) (map (row w t) l') w1 = Done true w' /\ Quiet w w' /\ cur w' = cur w /\ MarksIn X w w').
    { intros w1 Q1 Hc1 M1.
      assert (E1 : map (row w t) l' = map (row w1 t) l') by (apply map_ext; intros d0; symmetry; apply (proj2 (qt_rows _ _ Q1 t))).
      rewrite E1.
      destruct (IHl w1 (validx_quiet X w w1 Q1 V) (qt_ok _ _ Q1)) as [w' [A [B [Cc M']]]].
      - intros a. destruct (qt_rows _ _ Q1 a) as [KK RR]. apply (QR_same gen ord w); [exact KK|exact RR|apply Hq].
      - exact Ht.
      - intros d0 I0. rewrite (proj1 (qt_rows _ _ Q1 t)). apply Hl. right. exact I0.
      - exists w'. split; [exact A|split; [eapply quiet_trans; eassumption|split; [congruence|eapply marksin_trans; eassumption]]]. }
    assert (Res : forall r c st, rc_check (RC c) (env w) r (get_content w r) st = Consistent ->
              exists w', check_deps RC OC (mc f) (Some (DRead r c st) :: map (row w t) l') w = Done true w' /\ Quiet w w' /\ cur w' = cur w /\ MarksIn X w w').
    { intros r c st D'. rewrite (check_deps_consistent RC OC (mc f) (DRead r c st) r c st _ w eq_refl D').
      apply NEXT; [eapply quiet_trans; apply quiet_emit; try exact H; exact I|reflexivity|apply marksin_same; reflexivity]. }
    destruct dp as [|y c st|r c st|r c st]; cbn [DepOKX] in D; [contradiction| |exact (Res r c st D)|exact (Res r c st D)].
    destruct D as [Hy [oy [Oy Ck]]].
    assert (Oyt : (ord y < ord t)%nat).
    { apply (proj1 (Hq t)). destruct H as [W [T Sw]]. destruct (T _ _ _ R) as [_ TG]. cbn in TG. subst d. exact Kd. }
    set (w1 := emit w (ECheckTaskStart y c st)).
    assert (Q1 : Quiet w w1) by (apply quiet_emit; [exact H|exact I]).
    destruct (IH X w1 y (validx_quiet X w w1 Q1 V) Hy (qt_ok _ _ Q1)) as [o2 [w2 [M2 [O2 [Q2 [Hc2 Mk2]]]]]].
    { intros a. destruct (qt_rows _ _ Q1 a) as [KK RR]. apply (QR_same gen ord w); [exact KK|exact RR|apply Hq]. }
    { lia. }
    rewrite M2. cbn [bind].
    assert (Eo : o2 = oy).
    { change (get_task_output w y = Some o2) in O2. rewrite Oy in O2. inversion O2. reflexivity. }
    subst o2.
    rewrite Ck. cbn [negb].
    set (w3 := emit w2 (ECheckTaskEnd y c st false)).
    assert (Q3 : Quiet w w3).
    { eapply quiet_trans; [exact Q1|]. eapply quiet_trans; [exact Q2|]. apply quiet_emit; [apply (qt_ok _ _ Q2)|exact I]. }
    apply (NEXT w3 Q3); [change (cur w2 = cur w); rewrite Hc2; reflexivity|exact Mk2].
Qed.

Theorem idem_mc : forall f, IDEM f.
Proof.
  induction f as [|f IH]; intros X w t V Ht H Hq Hf; [lia|]. cbn [make_consistent_td].
  pose proof (quiet_goc_task w t H) as Q0. set (w0 := get_or_create_task_node w t) in *.
  pose proof (validx_quiet X w w0 Q0 V) as V0.
  destruct (proj1 (V0 t Ht)) as [o0 Ho0].
  assert (Ho : get_task_output w t = Some o0) by (unfold get_task_output in *; rewrite <- (qt_outs _ _ Q0); exact Ho0).
  assert (C0 : consistent w0 = consistent w) by (unfold w0, get_or_create_task_node; destruct (live _ _); reflexivity).
  destruct (memN t (consistent w0)).
  - rewrite Ho0. exists o0, w0. split; [reflexivity|split; [exact Ho|split; [exact Q0|split; [|apply marksin_same; exact C0]]]].
    unfold w0, get_or_create_task_node. destruct (live _ _); reflexivity.
  - rewrite Ho0. rewrite deps_of_task_map.
    assert (Q0q : Q gen ord w0) by (intros a; destruct (qt_rows _ _ Q0 a) as [KK RR]; apply (QR_same gen ord w); [exact KK|exact RR|apply Hq]).
    destruct (idem_chk f X t IH ltac:(lia) (kidsT w0 t) w0 V0 (qt_ok _ _ Q0) Q0q Ht ltac:(intros d I0; exact I0)) as [w1 [CD [Q1 [Hc1 Mk1]]]].
    change (kids_of (gr w0) (tn t)) with (kidsT w0 t). change (fun d => get_edata (gr w0) (tn t) d) with (row w0 t).
    rewrite CD. cbn [bind].
    assert (Ho1 : get_task_output w1 t = Some o0) by (unfold get_task_output in *; rewrite (qt_outs _ _ Q1); exact Ho0).
    rewrite Ho1. exists o0, (mark_consistent w1 t). split; [reflexivity|]. split; [exact Ho|]. split.
    + eapply quiet_trans; [exact Q0|]. eapply quiet_trans; [exact Q1|].
      apply quiet_struct; try reflexivity; [apply (qt_ok _ _ Q1)|exists []; split; reflexivity|].
      intros x Xx. unfold mark_consistent. cbn [consistent set_consistent]. rewrite memN_cons, Xx. apply orb_true_r.
    + split; [change (cur w1 = cur w); rewrite Hc1; unfold w0, get_or_create_task_node; destruct (live _ _); reflexivity|].
      unfold MarksIn. cbn [mark_consistent consistent set_consistent]. intros c Hc. rewrite memN_cons in Hc. destruct (N.eqb_spec c t) as [E|_]; [right; rewrite E; exact Ht|].
      apply (marksin_trans X w w0 w1 (marksin_same X w w0 C0) Mk1 c Hc).
Qed.

Variable always : ocid.

Lemma idem_session_require X fuel v t : ValidX X v -> In t X -> StoreOK v -> Q gen ord v -> (ord t < fuel)%nat ->
  exists o v', session_require RC OC P always fuel v t = Done o v' /\ get_task_output v t = Some o /\ Quiet v v'.
Proof.
  intros V Ht H Hq Hf.
  assert (Q2 : Quiet v (top_start always v t)).
  { eapply quiet_trans; [apply (quiet_struct v (emit (emit (set_cur v None) EBuildStart) (ERequireStart t always))); try reflexivity;
      [exact H|exists [EBuildStart; ERequireStart t always]; split; reflexivity|intros x Xx; exact Xx]|].
    apply quiet_goc_task. exact H. }
  unfold session_require, require_td, require_with. fold (top_start always v t). set (v2 := top_start always v t) in *.
  assert (Hc2 : cur v2 = None) by (unfold v2, top_start, get_or_create_task_node; destruct (live _ _); reflexivity).
  unfold reserve_require_dependency. rewrite Hc2. cbn [bind].
  destruct (idem_mc fuel X v2 t (validx_quiet X v v2 Q2 V) Ht (qt_ok _ _ Q2)) as [o [v4 [M [O [Q4 [Hc4' _]]]]]].
  { intros a. destruct (qt_rows _ _ Q2 a) as [KK RR]. apply (QR_same gen ord v); [exact KK|exact RR|apply Hq]. }
  { exact Hf. }
  rewrite M. cbn [bind]. unfold update_require_dependency. cbn [cur emit]. rewrite Hc4', Hc2. cbn [bind].
  exists o. eexists. split; [reflexivity|]. split.
  - unfold get_task_output in *. rewrite <- (qt_outs _ _ Q2). exact O.
  - eapply quiet_trans; [exact Q2|]. eapply quiet_trans; [exact Q4|].
    pose proof (quiet_emit v4 (ERequireEnd t always (oc_stamp (OC always) o) o) (qt_ok _ _ Q4) I) as Q5.
    eapply quiet_trans; [exact Q5|]. apply (quiet_emit _ EBuildEnd (qt_ok _ _ Q5) I).
Qed.

Theorem idem_session X fuel ops : forall v, ValidX X v -> StoreOK v -> Q gen ord v -> roots_below ord fuel ops -> (forall t, In t (roots ops) -> In t X) ->
  let r := run_session RC OC P always fuel v ops in
  Quiet v (snd r) /\ fst r = map (fun t => RDone (get_task_output v t)) (roots ops).
Proof.
  induction ops as [|op tl IH]; intros v V H Hq RB HX; cbn [run_session roots map].
  - split; [apply quiet_refl; exact H|reflexivity].
  - destruct op as [t|ch]; [|destruct RB]. destruct RB as [Hf RB]. cbn [run_sop roots map].
    destruct (idem_session_require X fuel v t V (HX t (or_introl eq_refl)) H Hq Hf) as [o [v1 [SR [O Q1]]]]. rewrite SR.
    assert (Q1q : Q gen ord v1) by (intros a; destruct (qt_rows _ _ Q1 a) as [KK RR]; apply (QR_same gen ord v); [exact KK|exact RR|apply Hq]).
    specialize (IH v1 (validx_quiet X v v1 Q1 V) (qt_ok _ _ Q1) Q1q RB (fun t0 I0 => HX t0 (or_intror I0))). cbv zeta in IH.
    destruct (run_session RC OC P always fuel v1 tl) as [rs v2]. cbn [fst snd] in *. destruct IH as [Q2 E2].
    split; [eapply quiet_trans; eassumption|]. rewrite O, E2. f_equal. apply map_ext_in. intros t0 _.
    unfold get_task_output. rewrite (qt_outs _ _ Q1). reflexivity.
Qed.
End I.

Section Top.
Variable gen : res -> option task.
Variable wck : rcid -> Prop.
Variable ord : task -> nat.
Variable RC : rcid -> rchecker.
Variable OC : ocid -> ochecker.
Variable P : task -> prog.
Variable sf : rcid -> res -> content -> Z.
Variable always : ocid.
Hypothesis HS : forall c env r v, rc_stamp (RC c) env r v = inl (sf c r v).
Hypothesis HWF : forall t, WFP gen wck t [] (P t).
Hypothesis HWO : forall t, WFO ord t (P t).
Hypothesis HRefl : forall c env r v, rc_check (RC c) env r v (sf c r v) = Consistent.
Hypothesis HReflO : forall c o, oc_check (OC c) o (oc_stamp (OC c) o) = true.

Lemma VC_ValidX w : J w -> VC RC OC w -> ValidX RC OC (consistent w) (new_session w).
Proof.
  intros [H [_ Co]] V x Hx. apply memN_In in Hx. split.
  - destruct (get_task_output w x) as [o|] eqn:O; [exists o; exact O|]. exfalso. apply (Co x Hx). exact O.
  - intros d dp R. pose proof (V x Hx d dp R) as D.
    destruct dp as [|y c st|r c st|r c st]; cbn [DepOK DepOKX] in *; try exact D.
    destruct D as [Y Z]. split; [apply memN_In; exact Y|exact Z].
Qed.

(* the session run twice from any store with the invariants of the static class: the second run executes nothing *)
Theorem twice_executes_nothing fuel w ops : J (new_session w) -> Q gen ord w -> roots_below ord fuel ops ->
  let r1 := run_session RC OC P always fuel (new_session w) ops in
  let r2 := run_session RC OC P always fuel (new_session (snd r1)) ops in
  fst r2 = fst r1 /\ execs (rev (trace (snd r2))) = [] /\ forall r, get_content (snd r2) r = get_content (snd r1) r.
Proof.
  intros Jw Qw RB r1 r2.
  assert (V0 : VC RC OC (new_session w)) by (intros x Xx; discriminate).
  destruct (session_VC gen wck ord RC OC P sf HS HWF HWO HRefl HReflO always fuel ops (new_session w) RB Jw
              ltac:(apply (Q_same gen ord w); [reflexivity|exact Qw]) V0) as [V1 [J1 [Q1 [_ [_ [E1 R1]]]]]].
  fold r1 in V1, J1, Q1, E1, R1.
  destruct (idem_session gen ord RC OC P always (consistent (snd r1)) fuel ops (new_session (snd r1)) (VC_ValidX (snd r1) J1 V1)
              (proj1 J1) ltac:(apply (Q_same gen ord (snd r1)); [reflexivity|exact Q1]) RB (fun t It => proj1 (memN_In _ _) (R1 t It))) as [Qt E2].
  fold r2 in Qt, E2.
  split; [rewrite E2, E1; reflexivity|]. split.
  - destruct (qt_seg _ _ Qt) as [seg [T Ex]]. rewrite T. cbn [new_session trace]. rewrite app_nil_r, rev_involutive. exact Ex.
  - intros r. rewrite (qt_content _ _ Qt). reflexivity.
Qed.

Theorem second_session_executes_nothing fuel h ops : hist_below ord fuel h -> roots_below ord fuel ops ->
  let w := snd (run_history RC OC P always fuel init_world h) in
  let r1 := run_session RC OC P always fuel (new_session w) ops in
  let r2 := run_session RC OC P always fuel (new_session (snd r1)) ops in
  fst r2 = fst r1 /\ execs (rev (trace (snd r2))) = [] /\ forall r, get_content (snd r2) r = get_content (snd r1) r.
Proof.
  intros HB RB.
  destruct (history_returns gen wck ord RC OC P sf HS HWF HWO always fuel h init_world HB J_init (Q_init gen ord)) as [_ [Jw Qw]].
  exact (twice_executes_nothing fuel _ ops (J_new_session _ Jw) Qw RB).
Qed.
End Top.
