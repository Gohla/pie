(* Invariants over whole histories (external edits, checker-environment switches, sessions of top-down requires and
   bottom-up builds): the store invariant holds in every world a history can reach, including worlds left behind by aborts.
   Stated as a disjunction: some result is the model-only abort ([bug4]: ABug 4, the graph search out of fuel or a node missing),
   or the invariant holds.  NoBug4All.history_no_bug4 shows that the first case never occurs. *)
From Coq Require Import List ZArith Lia.
From PieV Require Import Model.Build Proofs.DagPath Proofs.InvE Proofs.StoreInv.
Import ListNotations.
Open Scope N_scope.

Definition bug4 (r : sres) : Prop := r = RAbort (ABug 4).

Section H.
Variable RC : rcid -> rchecker.
Variable OC : ocid -> ochecker.
Variable Pt : task -> prog.
Variable always : ocid.

Lemma StoreOK_set_cur w c : StoreOK w -> StoreOK (set_cur w c). Proof. intros H. exact H. Qed.
Lemma StoreOK_set_content w r v : StoreOK w -> StoreOK (set_content w r v). Proof. intros H. destruct v; exact H. Qed.

Lemma run_sop_ok fuel w o : StoreOK w -> bug4 (fst (run_sop RC OC Pt always fuel w o)) \/ StoreOK (snd (run_sop RC OC Pt always fuel w o)).
Proof.
  intros H. unfold run_sop. destruct o as [t|ch].
  - pose proof (session_require_ok RC OC Pt StoreOK (StoreOK_preserved RC) always (fun w => StoreOK_set_cur w None) fuel w t H) as X.
    destruct (session_require RC OC Pt always fuel w t) as [x w'|k w'|]; cbn in *.
    + right. exact X. + destruct X as [->|X]; [left; reflexivity|right; exact X]. + right. exact H.
  - pose proof (session_bottom_up_ok RC OC Pt StoreOK (StoreOK_preserved RC) (fun w => StoreOK_set_cur w None) fuel w ch H) as X.
    destruct (session_bottom_up RC OC Pt fuel w ch) as [x w'|k w'|]; cbn in *.
    + right. exact X. + destruct X as [->|X]; [left; reflexivity|right; exact X]. + right. exact H.
Qed.

Lemma run_session_ok fuel ops : forall w, StoreOK w ->
  Exists bug4 (fst (run_session RC OC Pt always fuel w ops)) \/ StoreOK (snd (run_session RC OC Pt always fuel w ops)).
Proof.
  induction ops as [|o tl IH]; intros w H; cbn [run_session]; [right; exact H|].
  pose proof (run_sop_ok fuel w o H) as X. destruct (run_sop RC OC Pt always fuel w o) as [r w'] eqn:E. cbn [fst snd] in X.
  destruct r as [x|k|].
  - destruct X as [X|X]; [discriminate|]. specialize (IH w' X). destruct (run_session RC OC Pt always fuel w' tl) as [rs w'']. cbn [fst snd] in *.
    destruct IH as [IH|IH]; [left; right; exact IH|right; exact IH].
  - cbn [fst snd]. destruct X as [X|X]; [left; left; exact X|right; exact X].
  - cbn [fst snd]. destruct X as [X|X]; [discriminate|right; exact X].
Qed.

Theorem run_history_ok fuel h : forall w, StoreOK w ->
  Exists (Exists bug4) (fst (run_history RC OC Pt always fuel w h)) \/ StoreOK (snd (run_history RC OC Pt always fuel w h)).
Proof.
  induction h as [|s tl IH]; intros w H; cbn [run_history]; [right; exact H|].
  assert (X : Exists bug4 (fst (run_step RC OC Pt always fuel w s)) \/ StoreOK (snd (run_step RC OC Pt always fuel w s))).
  { destruct s as [r v|f|ops]; cbn [run_step fst snd].
    - right. apply StoreOK_set_content. exact H.
    - right. exact H.
    - apply run_session_ok. exact H. }
  destruct (run_step RC OC Pt always fuel w s) as [r w']. cbn [fst snd] in X.
  destruct X as [X|X].
  - destruct (run_history RC OC Pt always fuel w' tl) as [rs w'']. cbn [fst]. left. left. exact X.
  - specialize (IH w' X). destruct (run_history RC OC Pt always fuel w' tl) as [rs w'']. cbn [fst snd] in *.
    destruct IH as [IH|IH]; [left; right; exact IH|right; exact IH].
Qed.

Theorem reachable_store_ok fuel h :
  ~ Exists (Exists bug4) (fst (run_history RC OC Pt always fuel init_world h)) -> StoreOK (snd (run_history RC OC Pt always fuel init_world h)).
Proof. intros N. destruct (run_history_ok fuel h init_world GOK_empty) as [X|X]; [tauto|exact X]. Qed.

End H.

Theorem store_single_writer w r t1 t2 :
  StoreOK w -> In t1 (writers (gr w) r) -> In t2 (writers (gr w) r) -> t1 = t2.
Proof.
  intros [_ [_ S]] H1 H2. specialize (S r). destruct (writers (gr w) r) as [|a [|b tl]]; cbn in *.
  - destruct H1.
  - destruct H1 as [<-|[]]. destruct H2 as [<-|[]]. reflexivity.
  - lia.
Qed.
Theorem store_acyclic w u : StoreOK w -> ~ path (gr w) u u.
Proof. intros [W _]. apply WF_acyclic. exact W. Qed.
