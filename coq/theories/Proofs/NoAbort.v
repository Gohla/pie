(* C20 (first clause) and the totality of C01: inside the static program class -- WFP (Stable.v) plus a well-founded require
   order [ord] and no panicking task -- a top-down build NEVER aborts: the cycle, hidden-dependency and overlapping-write
   diagnoses cannot fire, whatever the store has recorded in earlier states, and the build returns with fuel > ord(root).
   Invariant Q, per task a (also for executing and aborted tasks): required tasks are smaller in [ord]; written resources
   are a's own products; a generated resource that a read is recorded for has its generator among a's recorded requires. *)
From Coq Require Import List ZArith Lia.
From PieV Require Import Model.Dag Model.Build Proofs.DagLib Proofs.DagWF Proofs.DagPath Proofs.DagAddEdge
  Proofs.StoreInv Proofs.Effects Proofs.Steps Proofs.Local Proofs.ExecInv Proofs.ExecSession Proofs.Cert Proofs.Stable
  Proofs.Sim.
Import ListNotations.
Open Scope N_scope.

Section Cl.
Variable gen : res -> option task.
Variable wck : rcid -> Prop.
Variable ord : task -> nat.

(* requires go down in [ord]; no Panic *)
Inductive WFO (t : task) : prog -> Prop :=
| WFO_ret o : WFO t (Ret o)
| WFO_req x c k : (ord x < ord t)%nat -> (forall v, WFO t (k v)) -> WFO t (Req x c k)
| WFO_read r c k : (forall v, WFO t (k v)) -> WFO t (Read r c k)
| WFO_write r c v k : (forall x, WFO t (k x)) -> WFO t (Write r c v k)
| WFO_wto r c v k : (forall x, WFO t (k x)) -> WFO t (WrittenTo r c v k).

Lemma WFO_req_inv t x c k : WFO t (Req x c k) -> (ord x < ord t)%nat /\ forall v, WFO t (k v).
Proof. intros H. inversion H; subst. split; assumption. Qed.
Lemma WFO_rw {X} t (o : rwop X) k : WFO t (rw_prog o k) -> forall x, WFO t (k x).
Proof. destruct o; intros H; inversion_clear H; assumption. Qed.

Definition before (x y : node) (l : list node) : Prop := exists l1 l2, l = l1 ++ y :: l2 /\ In x l1.
Lemma before_in x y l : before x y l -> In x l.
Proof. intros [l1 [l2 [-> I]]]. apply in_or_app. left. exact I. Qed.
Lemma before_app x y l d : before x y l -> before x y (l ++ [d]).
Proof. intros [l1 [l2 [-> I]]]. exists l1, (l2 ++ [d]). split; [rewrite <- app_assoc; reflexivity|exact I]. Qed.

Definition QR (w : world) (a : task) : Prop :=
  (forall b, In (tn b) (kidsT w a) -> (ord b < ord a)%nat) /\
  (forall r dp, row w a (rn r) = Some dp -> is_write (Some dp) = true -> gen r = Some a) /\
  (forall r dp, row w a (rn r) = Some dp -> is_read (Some dp) = true ->
     gen r = None \/ exists g, gen r = Some g /\ before (tn g) (rn r) (kidsT w a)).
Definition Q (w : world) : Prop := forall a, QR w a.

Lemma QR_same_res w w' a : kidsT w' a = kidsT w a -> (forall r, row w' a (rn r) = row w a (rn r)) -> QR w a -> QR w' a.
Proof. intros K R [A [B C]]. unfold QR. rewrite K. split; [exact A|]. split; intros r dp X; rewrite R in X; [apply (B r dp X)|apply (C r dp X)]. Qed.
Lemma QR_same w w' a : kidsT w' a = kidsT w a -> (forall d, row w' a d = row w a d) -> QR w a -> QR w' a.
Proof. intros K R. exact (QR_same_res w w' a K (fun r => R (rn r))). Qed.
Lemma Q_same w w' : gr w' = gr w -> Q w -> Q w'.
Proof. intros G H a. apply (QR_same w); [unfold kidsT; rewrite G; reflexivity|intros d; unfold row; rewrite G; reflexivity|apply H]. Qed.
Definition others_same (t : task) (w w' : world) : Prop := forall a, a <> t -> kidsT w' a = kidsT w a /\ forall d, row w' a d = row w a d.
Lemma leaf_others t w w' : Leaf t w w' -> others_same t w w'.
Proof.
  intros L a Hne. assert (X : tn a <> tn t) by (intros E; apply tn_inj in E; contradiction).
  split; [apply (lf_grows _ _ _ L); exact X|intros d; apply (lf_eother _ _ _ L); exact X].
Qed.
Lemma Q_leaf_other t w w' a : Leaf t w w' -> a <> t -> QR w a -> QR w' a.
Proof. intros L Hne. destruct (leaf_others t w w' L a Hne) as [X Y]. apply QR_same; assumption. Qed.
Lemma QR_empty w a : kidsT w a = [] -> (forall d, row w a d = None) -> QR w a.
Proof. intros K R. unfold QR. rewrite K. split; [intros b []|]. split; intros r dp X; rewrite R in X; discriminate. Qed.
Lemma QR_step t w w' d dp : RowStep t w w' d dp -> QR w t ->
  (forall x, d = tn x -> (ord x < ord t)%nat) ->
  (forall r, d = rn r -> is_write (Some dp) = true -> gen r = Some t) ->
  (forall r, d = rn r -> is_read (Some dp) = true -> gen r = None \/ exists g, gen r = Some g /\ In (tn g) (kidsT w t)) ->
  QR w' t.
Proof.
  intros [K [R1 R2]] [A [B C]] H1 H2 H3. unfold QR. rewrite K. split; [|split].
  - intros b Hb. apply in_app_or in Hb. destruct Hb as [Hb|[Hb|[]]]; [apply A; exact Hb|apply H1; exact Hb].
  - intros r dp' X W. destruct (N.eq_dec (rn r) d) as [E|Hne].
    + rewrite E, R1 in X. inversion X; subst dp'. apply (H2 r (eq_sym E) W).
    + rewrite R2 in X by exact Hne. apply (B r dp' X W).
  - intros r dp' X W. destruct (N.eq_dec (rn r) d) as [E|Hne].
    + rewrite E, R1 in X. inversion X; subst dp'. destruct (H3 r (eq_sym E) W) as [Y|[g [Y Z]]]; [left; exact Y|right; exists g; split; [exact Y|]].
      exists (kidsT w t), []. split; [rewrite E; reflexivity|exact Z].
    + rewrite R2 in X by exact Hne. destruct (C r dp' X W) as [Y|[g [Y Z]]]; [left; exact Y|right; exists g; split; [exact Y|apply before_app; exact Z]].
Qed.

Lemma Q_reserve t w w3 x : others_same t w w3 -> RowStep t w w3 (tn x) DReserved -> (ord x < ord t)%nat -> Q w -> Q w3.
Proof.
  intros L3 RS Ho Hq a. destruct (N.eq_dec a t) as [->|Hne]; [|destruct (L3 a Hne) as [X Y]; apply (QR_same w); [exact X|exact Y|apply Hq]].
  apply (QR_step t w w3 (tn x) DReserved RS (Hq t)).
  - intros y E. apply tn_inj in E. subst y. exact Ho.
  - intros r E. exfalso. exact (tn_rn _ _ E).
  - intros r E. exfalso. exact (tn_rn _ _ E).
Qed.

Lemma path_ord w : StoreOK w -> Q w -> forall u v, path (gr w) u v -> forall a b, u = tn a -> v = tn b -> (ord b < ord a)%nat.
Proof.
  intros H Hq u v Pth. induction Pth as [u v E|u m v E Pth IH]; intros a b -> ->.
  - apply (proj1 (Hq a)). exact E.
  - pose proof (path_src_task (gr w) m (tn b) H Pth) as Tm. apply even_tn in Tm.
    assert (A1 : (ord (un m) < ord a)%nat) by (apply (proj1 (Hq a)); rewrite <- Tm; exact E).
    specialize (IH (un m) b Tm eq_refl). lia.
Qed.

Lemma no_cycle w t x dp : StoreOK w -> Q w -> (ord x < ord t)%nat -> fst (add_dependency w (tn t) (tn x) dp) <> AddCycle.
Proof.
  intros H Hq Ho. unfold add_dependency.
  destruct (live (gr w) (tn t)) eqn:Lt; [destruct (live (gr w) (tn x)) eqn:Lx|].
  - pose proof (add_edge_cycle_iff (gr w) (tn t) (tn x) dp (proj1 H) Lt Lx) as I.
    destruct (add_edge (gr w) (tn t) (tn x) dp) as [[b|[|]|] g'] eqn:AE; cbn [fst] in *; try discriminate.
    exfalso. destruct (proj1 I eq_refl) as [E|Pth]; [apply tn_inj in E; subst; lia|].
    pose proof (path_ord w H Hq _ _ Pth x t eq_refl eq_refl). lia.
  - unfold add_edge. rewrite Lt, Lx. cbn. discriminate.
  - unfold add_edge. rewrite Lt. cbn. discriminate.
Qed.

Lemma hidden_read_false w t r : StoreOK w -> Q w ->
  (gen r = None \/ exists g, gen r = Some g /\ In (tn g) (kidsT w t)) -> hidden_read_check w t r = false.
Proof.
  intros H Hq Hg. unfold hidden_read_check. destruct (get_task_writing_to_resource w r) as [wr|] eqn:Wr; [|reflexivity].
  destruct (writer_edge w r wr H Wr) as [dp [R Wd]]. pose proof (proj1 (proj2 (Hq wr)) r dp R Wd) as G.
  destruct Hg as [E|[g [E I]]]; [congruence|]. rewrite G in E. inversion E; subst g.
  rewrite (cte_edge w t wr H I). reflexivity.
Qed.

Lemma validate_write_none_class w t r : StoreOK w -> Q w -> gen r = Some t -> ~ In (rn r) (kidsT w t) -> validate_write w t r = None.
Proof.
  intros H Hq Hg Hn. unfold validate_write.
  assert (NoRow : forall dp, row w t (rn r) = Some dp -> False).
  { intros dp R. apply Hn. apply (wf_edata _ (proj1 H)). unfold row in R. congruence. }
  destruct (get_task_writing_to_resource w r) as [wr|] eqn:Wr.
  - exfalso. destruct (writer_edge w r wr H Wr) as [dp [R Wd]]. pose proof (proj1 (proj2 (Hq wr)) r dp R Wd) as G.
    rewrite Hg in G. inversion G; subst wr. exact (NoRow dp R).
  - destruct (existsb _ (get_tasks_reading_from_resource w r)) eqn:Ex; [|reflexivity]. exfalso.
    apply existsb_exists in Ex. destruct Ex as [rd [I X]].
    destruct (reader_edge w r rd H I) as [dp [R Rd]].
    destruct (proj2 (proj2 (Hq rd)) r dp R Rd) as [E|[g [E Ig]]]; [congruence|]. rewrite Hg in E. inversion E; subst g.
    rewrite (cte_edge w rd t H (before_in _ _ _ Ig)) in X. discriminate.
Qed.

Lemma Q_goc w n : Q w -> Q (goc w n).
Proof. intros H a. destruct (goc_row w n a) as [A B]. apply (QR_same w); [exact A|exact B|apply H]. Qed.
Lemma Q_goc_res w r : Q w -> Q (get_or_create_resource_node w r). Proof. exact (Q_goc w (rn r)). Qed.
Lemma Q_goc_task w x : Q w -> Q (get_or_create_task_node w x). Proof. exact (Q_goc w (tn x)). Qed.

Section Pass.
Variable RC : rcid -> rchecker.
Variable OC : ocid -> ochecker.
Variable P : task -> prog.
Variable sf : rcid -> res -> content -> Z.
Hypothesis HS : forall c env r v, rc_stamp (RC c) env r v = inl (sf c r v).
Hypothesis HWF : forall t, WFP gen wck t [] (P t).
Hypothesis HWO : forall t, WFO t (P t).

Definition ret {A} (m : outcome A) : Prop := match m with Done _ w' => Q w' | _ => False end.

Lemma kids_goc_res w r t : kidsT (get_or_create_resource_node w r) t = kidsT w t.
Proof. apply (proj1 (goc_res_row w r t)). Qed.

Lemma record_ret {A} (x : A) w2 w3 t r dp : gr w3 = gr w2 ->
  WF (gr w2) /\ live (gr w2) (tn t) = true /\ live (gr w2) (rn r) = true ->
  exists y w', match add_dependency w3 (tn t) (rn r) dp with (AddBug, w4) => Abort (ABug 4) w4 | (_, w4) => Done x w4 end = Done y w'.
Proof.
  intros G [W [Lt Lr]]. rewrite <- G in W, Lt, Lr. pose proof (add_dep_not_bug w3 (tn t) (rn r) dp W Lt Lr) as NBg.
  destruct (add_dependency _ _ _ _) as [[| |] w4]; cbn [fst] in NBg; [eexists; eexists; reflexivity|eexists; eexists; reflexivity|congruence].
Qed.

Lemma run_rw_ret {X} (o : rwop X) w t : StoreOK w -> cur w = Some t -> live (gr w) (tn t) = true -> Q w ->
  (if rw_writes o then gen (rw_res o) = Some t else gen (rw_res o) = None \/ exists g, gen (rw_res o) = Some g /\ In (tn g) (kidsT w t)) ->
  (rw_writes o = true -> ~ In (rn (rw_res o)) (kidsT w t)) -> exists x w', run_rw RC o w = Done x w'.
Proof.
  intros H Hc Lt Hq Hg Hn. rewrite (run_rw_eq RC sf HS o w t Hc). pose proof (rw_at_gr o w) as G2.
  pose proof (rw_node_live w w t (rw_res o) eq_refl H Lt) as L2. cbv zeta in L2. rewrite <- G2 in L2.
  assert (H2 : StoreOK (rw_at o w)) by (unfold StoreOK; rewrite G2; apply goc_res_ok; exact H).
  assert (Q2 : Q (rw_at o w)) by (apply (Q_same _ _ G2), Q_goc_res, Hq).
  assert (K2 : kidsT (rw_at o w) t = kidsT w t) by (unfold kidsT; rewrite G2; apply kids_goc_res).
  rewrite <- K2 in Hg, Hn.
  assert (NB : rw_blocked o (rw_at o w) t = None).
  { destruct o as [r c|r c v|r c v]; cbn [rw_blocked rw_writes rw_res] in *;
      [rewrite (hidden_read_false _ t r H2 Q2 Hg); reflexivity|apply (validate_write_none_class _ t r H2 Q2 Hg (Hn eq_refl))..]. }
  rewrite NB. eapply record_ret; [apply rw_mid_gr|exact L2].
Qed.

Definition QMC (mc : world -> task -> outcome Z) (f : nat) : Prop :=
  forall w t S, StoreOK w -> Inv2 w -> Chain w S -> entry_ok w S t -> Q w -> (ord t < f)%nat -> ret (mc w t).
Definition QREQ (t : task) (S : list task) (req : world -> task -> ocid -> outcome Z) : Prop :=
  forall w x c, Pre t S w -> live (gr w) (tn t) = true -> Q w -> (ord x < ord t)%nat -> ~ In (tn x) (kidsT w t) -> ret (req w x c).

Lemma require_with_Q mc f t S : MCspec mc -> QMC mc f -> (ord t <= f)%nat -> QREQ t S (require_with OC mc).
Proof.
  intros HM HQ Hf w x c PR Lt Hq Ho Hnew. pose proof (require_with_run OC mc t S w x c HM PR) as RR. cbv zeta in RR.
  pose proof (leaf_require_start t w x c (pre_ok _ _ _ PR)) as L2.
  set (w2 := at_require w x c) in *.
  assert (Q2 : Q w2) by (apply Q_goc_task; apply (Q_same w); [reflexivity|exact Hq]).
  pose proof (add_dep_not_bug w2 (tn t) (tn x) DReserved (proj1 (lf_ok _ _ _ L2)) (proj2 (proj2 (lf_grows _ _ _ L2)) _ Lt) (live_goc_task _ x)) as NBg.
  pose proof (no_cycle w2 t x DReserved (lf_ok _ _ _ L2) Q2 Ho) as NCy.
  destruct (add_dependency w2 (tn t) (tn x) DReserved) as [[| |] w3] eqn:AD; cbn [fst] in *; try congruence.
  destruct RR as [L3 [E3 [C3 [J3 [Ho3 [Hc3 RM]]]]]].
  pose proof (Q_reserve t w w3 x (leaf_others t w w3 L3) (reserve_row t w x c w3 (pre_ok _ _ _ PR) Hnew AD) Ho Hq) as Q3.
  pose proof (HQ w3 x (t :: S) (lf_ok _ _ _ L3) J3 C3 E3 Q3 ltac:(lia)) as MQ.
  destruct (mc w3 x) as [o w4|k w4|]; cbn [ret] in MQ; try contradiction.
  destruct RM as [_ [_ ->]]. cbn [ret].
  (* the data of an edge between tasks does not matter to Q *)
  intros a. apply (QR_same_res w4); [reflexivity| |apply MQ].
  intros r. unfold row. cbn [gr set_gr emit]. rewrite get_edata_insert.
  destruct (pair_eqb (tn t, tn x) (tn a, rn r)) eqn:Z; [|reflexivity]. apply pair_eqb_eq in Z. inversion Z as [[Z1 Z2]]. exfalso. exact (tn_rn _ _ Z2).
Qed.

Lemma Q_rw {X} (op : rwop X) t w w1 v : Leaf t w w1 -> RowStep t w w1 (rn (rw_res op)) (rw_rec sf op v) ->
  (if rw_writes op then gen (rw_res op) = Some t
   else gen (rw_res op) = None \/ exists g, gen (rw_res op) = Some g /\ In (tn g) (kidsT w t)) ->
  Q w -> Q w1.
Proof.
  intros LF RS Hg Hq a. destruct (N.eq_dec a t) as [->|Hne]; [|apply (Q_leaf_other t w w1 a LF Hne); apply Hq].
  apply (QR_step t w w1 _ _ RS (Hq t)).
  - intros y E. exfalso. symmetry in E. exact (tn_rn _ _ E).
  - intros r0 E Wd. apply rn_inj in E. subst r0. destruct op; [discriminate Wd|exact Hg|exact Hg].
  - intros r0 E Rd. apply rn_inj in E. subst r0. destruct op; [exact Hg|discriminate Rd|discriminate Rd].
Qed.

Lemma exec_prog_Q t S req : REQspec t S req -> QREQ t S req -> ROWREQ OC t S req ->
  forall p w, Pre t S w -> live (gr w) (tn t) = true -> Q w -> WFP gen wck t (kidsT w t) p -> WFO t p -> ret (exec_prog RC OC req p w).
Proof.
  intros HR HQ HRow. induction p as [o| |x c k IH|X o k IH] using prog_rw_ind; intros w PR Lt Hq HW HO.
  - exact Hq.
  - inversion HO.
  - destruct (WFP_req_inv gen wck t _ x c k HW) as [Hx Hk]. destruct (WFO_req_inv t x c k HO) as [Hox Hok]. cbn [exec_prog].
    pose proof (req_pre t S req w x c HR PR) as SP.
    pose proof (HQ w x c PR Lt Hq Hox Hx) as RQ. pose proof (HRow w x c) as RW.
    destruct (req w x c) as [ox w1|k1 w1|]; cbn [bind ret] in *; try contradiction.
    destruct (RW ox w1 PR Hx eq_refl) as [A _].
    apply IH; [eapply (pre_step t S w); eassumption|eapply (step_live t S w); eassumption|exact RQ|rewrite A; apply Hk|apply Hok].
  - destruct (WFP_rw gen wck t _ o k HW) as [Hx [Hg [_ Hk]]]. pose proof (WFO_rw t o k HO) as Hok. rewrite exec_prog_rw.
    destruct (run_rw_ret o w t (pre_ok _ _ _ PR) (pre_cur _ _ _ PR) Lt Hq Hg (fun _ => Hx)) as [xv [w1 Eq]].
    destruct (rw_pre t S w _ PR (run_rw_chain RC o w)) as [LF SP].
    destruct (run_rw_row RC sf HS o w t xv w1 (pre_ok _ _ _ PR) (pre_cur _ _ _ PR) Hx Eq) as [_ RS].
    rewrite Eq in *. cbn [bind leafO] in *.
    apply IH; [eapply (pre_step t S w); eassumption|eapply (step_live t S w); eassumption| |rewrite (proj1 RS); apply Hk|apply Hok].
    apply (Q_rw o t w w1 _ LF RS Hg Hq).
Qed.

Lemma Q_exec_start w t : StoreOK w -> Q w -> Q (startw w t).
Proof.
  intros H Hq a. destruct (reset_task_facts w t H) as [H1 K1 _ _ _ _ E1 E0].
  set (w2 := startw w t).
  destruct (N.eq_dec a t) as [->|Hne].
  - apply QR_empty; [exact (reset_task_kids w t H)|intros d; apply E0].
  - assert (X : tn a <> tn t) by (intros E; apply tn_inj in E; contradiction).
    apply (QR_same w); [apply K1; exact X|intros d; apply E1; exact X|apply Hq].
Qed.

Lemma execute_with_Q t S req : REQspec t S req -> QREQ t S req -> ROWREQ OC t S req ->
  forall w, Top t S w -> Q w -> ret (execute_with RC OC P req w t).
Proof.
  intros HR HQ HRow w T Hq. destruct (exec_start_pre t S w T) as [PR2 [_ [KT2 _]]]. rewrite execute_with_eq.
  pose proof (top_ok _ _ _ T) as H.
  set (w2 := startw w t) in *.
  assert (Lt2 : live (gr w2) (tn t) = true) by (apply (rt_live w t (reset_task_facts w t H)); exact (top_live _ _ _ T)).
  pose proof (Q_exec_start w t H Hq) as Q2. fold w2 in Q2.
  pose proof (exec_prog_Q t S req HR HQ HRow (P t) w2 PR2 Lt2 Q2) as X. rewrite KT2 in X. specialize (X (HWF t) (HWO t)).
  destruct (exec_prog RC OC req (P t) w2) as [o w3|k w3|]; cbn [bind ret] in *; try contradiction.
  apply (Q_same w3); [reflexivity|exact X].
Qed.

(* Q as a pass over the top-down interpreter (ExecSession.TdPass): an invariant of calls that return, and every call whose
   fuel exceeds the height of its task returns.  QMC mc f is TdMC for these choices. *)
Lemma Q_still w w' : Q w -> Still w w' -> Q w'.
Proof. intros Hq [Qk [Qe _]] a. apply (QR_same w); [apply Qk|intros d; apply Qe|apply Hq]. Qed.
Lemma Q_laws : Laws Q (fun _ _ w' => Q w') False (fun f t => (ord t < f)%nat).
Proof.
  constructor; auto; [intros _ w w'; apply Q_still|intros t X; lia|].
  intros f w t x Hq E Hf. pose proof (proj1 (Hq t) x E). lia.
Qed.

Lemma execute_Q f t S w : QMC (make_consistent_td RC OC P f) f -> (ord t < Datatypes.S f)%nat -> Top t S w -> Q w ->
  ret (execute_with RC OC P (require_with OC (make_consistent_td RC OC P f)) w t).
Proof.
  intros HQ Hf. pose proof (make_consistent_td_spec RC OC P f) as HM.
  apply execute_with_Q; [apply (require_with_spec OC); exact HM|apply (require_with_Q _ f); [exact HM|exact HQ|lia]|apply (require_with_row OC); exact HM].
Qed.

Lemma check_deps_Q mc f t S : MCspec mc -> QMC mc f -> (ord t <= f)%nat ->
  forall ds w, StoreOK w -> Inv2 w -> Chain w (t :: S) -> (forall d, In d ds -> dep_ok w t d) -> Q w ->
  ret (check_deps RC OC mc ds w).
Proof. intros HM HQ Hf. apply (check_deps_X RC OC _ _ _ _ _ Q_laws f mc t S HM HQ). lia. Qed.

Theorem make_consistent_td_Q fuel : QMC (make_consistent_td RC OC P fuel) fuel.
Proof.
  apply (make_consistent_td_X RC OC P _ _ _ _ _ Q_laws). intros f t S w HX T Hq Hf. apply (execute_Q f t S); assumption.
Qed.

Variable always : ocid.
Lemma Q_init : Q init_world.
Proof. intros a. apply QR_empty; reflexivity. Qed.

Lemma session_require_Q fuel w t : StoreOK w -> Inv2 w -> Q w -> (ord t < fuel)%nat -> ret (session_require RC OC P always fuel w t).
Proof.
  apply (session_require_X RC OC P _ _ _ _ _ Q_laws). intros f t' S w' HX T Hq Hf. apply (execute_Q f t' S); assumption.
Qed.

Fixpoint roots_below (fuel : nat) (ops : list sop) : Prop :=
  match ops with [] => True | SRequire t :: tl => (ord t < fuel)%nat /\ roots_below fuel tl | SBottomUp _ :: _ => False end.
Lemma roots_td fuel ops : roots_below fuel ops -> td_only ops.
Proof. induction ops as [|[t|ch] tl IH]; cbn; [trivial|intros [_ X]; apply IH; exact X|intros []]. Qed.

Definition req_below (fuel : nat) (o : sop) : Prop := match o with SRequire t => (ord t < fuel)%nat | SBottomUp _ => False end.
Lemma roots_req fuel ops : roots_below fuel ops -> Forall (req_below fuel) ops.
Proof. induction ops as [|[t|ch] tl IH]; cbn; intros X; [constructor|constructor; [apply X|apply IH; apply X]|destruct X]. Qed.
Lemma session_require_JQ fuel w t : req_below fuel (SRequire t) -> J w /\ Q w ->
  sesO (fun v => J v /\ Q v) (fun v => J v /\ Q v) Sim.is_done (session_require RC OC P always fuel w t).
Proof.
  intros Hf [Jw Hq]. pose proof (session_require_Q fuel w t (proj1 Jw) (proj2 Jw) Hq Hf) as SQ.
  pose proof (session_require_execs RC OC P always fuel w t Jw) as SE.
  destruct (session_require RC OC P always fuel w t) as [x w1|k w1|]; cbn [ret] in SQ; try contradiction.
  split; [apply SE|exact SQ].
Qed.

Theorem session_returns fuel ops : forall w, roots_below fuel ops -> J w -> Q w ->
  Forall Sim.is_done (fst (run_session RC OC P always fuel w ops)) /\ J (snd (run_session RC OC P always fuel w ops)) /\ Q (snd (run_session RC OC P always fuel w ops)).
Proof.
  intros w RB Jw Hq.
  apply (run_session_lift RC OC P always (fun v => J v /\ Q v) (fun v => J v /\ Q v) Sim.is_done req_below);
    [intros x; eexists; reflexivity|trivial|intros f v t; apply session_require_JQ|intros f v ch []|apply roots_req; exact RB|split; assumption].
Qed.

Fixpoint hist_below (fuel : nat) (h : list step) : Prop :=
  match h with [] => True | HSession ops :: tl => roots_below fuel ops /\ hist_below fuel tl | _ :: tl => hist_below fuel tl end.
Lemma hist_req fuel h : hist_below fuel h -> Forall (step_ok req_below fuel) h.
Proof.
  induction h as [|[r v|f|ops] tl IH]; cbn; intros X; [constructor|constructor; [exact Logic.I|apply IH; exact X]..|].
  constructor; [apply roots_req; apply X|apply IH; apply X].
Qed.
(* C20, first clause: in the static class no session of any history aborts, for any reason; every require returns *)
Theorem history_returns fuel h : forall w, hist_below fuel h -> J w -> Q w ->
  Forall (Forall Sim.is_done) (fst (run_history RC OC P always fuel w h)) /\
  J (snd (run_history RC OC P always fuel w h)) /\ Q (snd (run_history RC OC P always fuel w h)).
Proof.
  intros w HB Jw Hq.
  apply (run_history_lift RC OC P always (fun v => J v /\ Q v) (fun v => J v /\ Q v) Sim.is_done req_below);
    [intros x; eexists; reflexivity|trivial|intros f v t; apply session_require_JQ|intros f v ch []| | | |apply hist_req; exact HB|split; assumption].
  - intros v [Jv Qv]. split; [apply J_new_session; exact Jv|apply (Q_same v); [reflexivity|exact Qv]].
  - intros v r c [Jv Qv]. split; [apply J_set_content; exact Jv|apply (Q_same v); [destruct c; reflexivity|exact Qv]].
  - intros v e [Jv Qv]. split; [exact Jv|apply (Q_same v); [reflexivity|exact Qv]].
Qed.
End Pass.
End Cl.
