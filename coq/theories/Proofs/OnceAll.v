(* C04, the at-most-once clause, in the static program class (Stable.WFP + NoAbort.WFO), for the bottom-up build that opens a
   session after any history: no task is executed twice.  The invariant Om is about C, the session's consistent set: a task is
   marked consistent only when everything reachable from it is settled, neither executing nor queued (Fin), it is scheduled
   or started only when it is not reachable from C (P3), and every task that has started is in C or still executing (TT), so
   a start is a first start.  B bundles what the earlier passes give.  The interpreters are traversed once, for Om, TT and any
   invariant that the steps of a build carry along (Carried): UpToDate.v (Psi3) and TdValid.v (XT, for top-down builds) are
   instances. *)
From Coq Require Import List NArith ZArith Bool Lia.
From PieV Require Import Model.Dag Model.Build Proofs.Local Proofs.Local2 Proofs.Steps Proofs.DagLib Proofs.DagWF Proofs.DagPath Proofs.StoreInv Proofs.Effects Proofs.ExecInv Proofs.Cert Proofs.Stable Proofs.NoAbort
  Proofs.NoBug4All Proofs.Queue Proofs.BuOnce Proofs.NoReentry Proofs.NoBugAll Proofs.CertAll Proofs.NoAbortAll Proofs.HasOut Proofs.FullOut.
Import ListNotations.
Open Scope N_scope.

Lemma path_sub (g g' : dag dep) : (forall n x, In x (kids_of g' n) -> In x (kids_of g n)) -> forall u v, path g' u v -> path g u v.
Proof. intros H u v Pth. induction Pth as [u v X|u y v X Pth IH]; [apply path1; apply H; exact X|eapply pathS; [apply H; exact X|exact IH]]. Qed.
Lemma path_grow_inv (g g' : dag dep) s : (forall n, n <> s -> forall x, In x (kids_of g' n) -> In x (kids_of g n)) ->
  forall u v, path g' u v -> path g u v \/ u = s \/ path g u s.
Proof.
  intros H u v Pth. induction Pth as [u v X|u y v X Pth IH].
  - destruct (N.eq_dec u s) as [->|Hu]; [right; left; reflexivity|left; apply path1; apply H; assumption].
  - destruct (N.eq_dec u s) as [->|Hu]; [right; left; reflexivity|]. pose proof (H u Hu y X) as Y.
    destruct IH as [A|[A|A]]; [left; eapply pathS; eassumption|right; right; subst y; apply path1; exact Y|right; right; eapply pathS; eassumption].
Qed.
Definition isC (w : world) (c : task) : Prop := memN c (consistent w) = true.
Definition RT (w : world) (c x : task) : Prop := c = x \/ path (gr w) (tn c) (tn x).
Definition P3 (w : world) (t : task) : Prop := forall c, isC w c -> ~ RT w c t.
Definition Fin (w : world) (t : task) : Prop := forall x, RT w t x -> ~ opn w x /\ ~ In x (queue w).

Lemma RT_trans w a b c : RT w a b -> RT w b c -> RT w a c.
Proof. intros [->|A] [->|B]; [left; reflexivity|right; exact B|right; exact A|right; eapply path_trans; eassumption]. Qed.

Lemma task_edge w a y : StoreOK w -> In (tn y) (kids_of (gr w) (tn a)) ->
  row w a (tn y) = Some DReserved \/ exists c st, row w a (tn y) = Some (DRequire y c st).
Proof.
  intros [W [T _]] E. apply (wf_edata _ W) in E. unfold row. destruct (get_edata (gr w) (tn a) (tn y)) as [dp|] eqn:Ed; [|contradiction].
  destruct (T _ _ _ Ed) as [_ D]. destruct dp as [|y' c st|r c st|r c st]; cbn in D; [left; reflexivity| |exfalso; exact (tn_rn _ _ D)..].
  apply tn_inj in D. subst y'. right. exists c, st. reflexivity.
Qed.
Lemma RT_closed w (S : task -> Prop) : StoreOK w -> (forall a y, S a -> In (tn y) (kids_of (gr w) (tn a)) -> S y) ->
  forall c x, S c -> RT w c x -> S x.
Proof.
  intros HS0 Hs c x Sc [<-|Pth]; [exact Sc|].
  assert (Gen : forall u z, path (gr w) u z -> forall a, u = tn a -> S a -> forall y, z = tn y -> S y).
  { intros u z Pz. induction Pz as [u z E|u m z E Pz IH]; intros a -> Sa y ->; [exact (Hs a y Sa E)|].
    pose proof (path_src_task (gr w) m (tn y) HS0 Pz) as Tm. apply even_tn in Tm. rewrite Tm in E.
    exact (IH (un m) Tm (Hs a (un m) Sa E) y eq_refl). }
  exact (Gen _ _ Pth c eq_refl Sc x eq_refl).
Qed.

Section OA.
Variable gen : res -> option task.

Definition needs (w : world) (x y : task) : Prop :=
  (exists c st, row w x (tn y) = Some (DRequire y c st)) \/
  (exists r dp, row w x (rn r) = Some dp /\ is_read (Some dp) = true /\ gen r = Some y).
Definition OA (w : world) : Prop := forall c x, isC w c -> RT w c x -> ~ opn w x /\ ~ In x (queue w).
Definition OCs (w : world) : Prop := forall x y, opn w x -> needs w x y -> isC w y.
Definition OD (w : world) : Prop := forall x, opn w x -> ~ In x (queue w).
Definition Om (w : world) : Prop := OA w /\ OCs w /\ OD w.
Definition OF (w : world) (t : task) : Prop := forall d, row w t d <> Some DReserved.
(* e: the task whose execution has ended and that schedule_after has not yet marked consistent *)
Definition TT (e : option task) (w : world) : Prop :=
  NoDup (execs (trace w)) /\ forall x, In x (execs (trace w)) -> isC w x \/ opn w x \/ e = Some x.

Lemma TT_weaken e w : TT None w -> TT e w.
Proof. intros [A B]. split; [exact A|]. intros x X. destruct (B x X) as [Y|[Y|Y]]; [left; exact Y|right; left; exact Y|discriminate]. Qed.

Definition qq (w w' : world) : Prop :=
  geq w w' /\ consistent w' = consistent w /\ (exists s, trace w' = s ++ trace w /\ Forall (fun e => ev3 e = true) s) /\
  (forall x, In x (queue w') -> In x (queue w)).
Lemma qq_refl w : qq w w.
Proof. split; [intros n; apply EqN_refl|]. split; [reflexivity|]. split; [exists []; split; [reflexivity|constructor]|trivial]. Qed.
Lemma qq_trans a b c : qq a b -> qq b c -> qq a c.
Proof.
  intros [G1 [C1 [[s1 [T1 F1]] Q1]]] [G2 [C2 [[s2 [T2 F2]] Q2]]]. split; [eapply geq_trans; eassumption|]. split; [congruence|]. split.
  - exists (s2 ++ s1). split; [rewrite T2, T1, app_assoc; reflexivity|apply Forall_app; split; assumption].
  - intros x X. apply Q1, Q2, X.
Qed.
Lemma qq_same w w' : gr w' = gr w -> consistent w' = consistent w -> trace w' = trace w -> (forall x, In x (queue w') -> In x (queue w)) -> qq w w'.
Proof. intros G C T Q. split; [apply geq_same; exact G|]. split; [exact C|]. split; [exists []; split; [exact T|constructor]|exact Q]. Qed.
Lemma qq_emit w e : ev3 e = true -> qq w (emit w e).
Proof. intros H. split; [apply geq_same; reflexivity|]. split; [reflexivity|]. split; [exists [e]; split; [reflexivity|constructor; [exact H|constructor]]|trivial]. Qed.
Lemma qq_goc w n : qq w (goc w n).
Proof. split; [apply geq_goc|]. destruct (goc_gr w n) as [g ->]. split; [reflexivity|]. split; [exists []; split; [reflexivity|constructor]|trivial]. Qed.
Lemma qq_goc_task w t : qq w (get_or_create_task_node w t). Proof. exact (qq_goc w (tn t)). Qed.
Lemma qq_goc_res w r : qq w (get_or_create_resource_node w r). Proof. exact (qq_goc w (rn r)). Qed.

Lemma qq_opens w w' : qq w w' -> opens (trace w') = opens (trace w).
Proof. intros [_ [_ [[s [T F]] _]]]. rewrite T. apply opens_app3. exact F. Qed.
Lemma execs_ev3 s : Forall (fun e => ev3 e = true) s -> execs s = [].
Proof. induction 1 as [|e s He _ IH]; [reflexivity|]. unfold execs in *. cbn [flat_map]. rewrite IH. destruct e; cbn in *; try reflexivity; discriminate. Qed.
Lemma execs_rev l : execs (rev l) = rev (execs l).
Proof. induction l as [|e l IH]; [reflexivity|]. cbn [rev]. rewrite execs_app, IH. unfold execs at 2 3. cbn [flat_map]. destruct e; cbn; try (rewrite app_nil_r; reflexivity); reflexivity. Qed.
Lemma qq_execs w w' : qq w w' -> execs (trace w') = execs (trace w).
Proof. intros [_ [_ [[s [T F]] _]]]. rewrite T, execs_app, (execs_ev3 s F). reflexivity. Qed.
Lemma geq_RT w w' c x : geq w w' -> RT w' c x -> RT w c x.
Proof. intros G [->|Pth]; [left; reflexivity|right]. apply (path_sub (gr w) (gr w')); [|exact Pth]. intros n y Y. rewrite <- (proj1 (G n)). exact Y. Qed.
Lemma geq_row w w' x d : geq w w' -> row w' x d = row w x d. Proof. intros G. apply (proj2 (G (tn x))). Qed.
Lemma needs_row w w' x y : (forall d, row w' x d = row w x d) -> needs w' x y -> needs w x y.
Proof. intros H [[c [st X]]|[r [dp [X IE]]]]; [left; exists c, st|right; exists r, dp; split; [|exact IE]]; rewrite <- H; exact X. Qed.
Lemma geq_needs w w' x y : geq w w' -> needs w' x y -> needs w x y.
Proof. intros G. apply needs_row. intros d. apply (geq_row w w' x d G). Qed.

Lemma Om_qq w w' : qq w w' -> Om w -> Om w'.
Proof.
  intros Hq [A [C D]]. pose proof (qq_opens w w' Hq) as Op. destruct Hq as [G [Cs [_ Q]]]. unfold Om, OA, OCs, OD, isC, opn in *. rewrite Op, Cs. split; [|split].
  - intros c x Hc R. destruct (A c x Hc (geq_RT w w' c x G R)) as [A1 A2]. split; [exact A1|intros X; apply A2, Q, X].
  - intros x y Hx N. apply (C x y Hx). eapply geq_needs; eassumption.
  - intros x Hx X. apply (D x Hx). apply Q. exact X.
Qed.
Lemma TT_qq e w w' : qq w w' -> TT e w -> TT e w'.
Proof.
  intros Hq [A B]. pose proof (qq_opens w w' Hq) as Op. pose proof (qq_execs w w' Hq) as Ex. destruct Hq as [_ [Cs _]].
  unfold TT, isC, opn. rewrite Ex, Op, Cs. split; assumption.
Qed.
Lemma P3_qq w w' t : qq w w' -> P3 w t -> P3 w' t.
Proof. intros [G [Cs _]] H c Hc R. unfold isC in Hc. rewrite Cs in Hc. apply (H c Hc). eapply geq_RT; eassumption. Qed.
Lemma OF_geq w w' t : geq w w' -> OF w t -> OF w' t.
Proof. intros G H d. rewrite (geq_row w w' t d G). apply H. Qed.

Lemma qq_queue_add_TT e w x : TT e w -> TT e (queue_add w x).
Proof. unfold queue_add. destruct (memN _ _); trivial. Qed.

Lemma isC_mark w t c : isC (mark_consistent w t) c <-> c = t \/ isC w c.
Proof.
  unfold isC, mark_consistent. cbn [consistent set_consistent]. unfold memN. cbn [existsb]. rewrite orb_true_iff, N.eqb_eq. reflexivity.
Qed.
Lemma Om_mark w t : Om w -> Fin w t -> Om (mark_consistent w t).
Proof.
  intros [A [C D]] HF. split; [|split].
  - intros c x Hc R. apply isC_mark in Hc. destruct Hc as [->|Hc]; [apply (HF x R)|apply (A c x Hc R)].
  - intros x y Hx N. apply isC_mark. right. apply (C x y Hx N).
  - exact D.
Qed.
Lemma TT_mark w t : TT (Some t) w -> TT None (mark_consistent w t).
Proof.
  intros [A B]. split; [exact A|]. intros x X. destruct (B x X) as [Y|[Y|Y]]; [left; apply isC_mark; right; exact Y|right; left; exact Y|].
  inversion Y; subst x. left. apply isC_mark. left. reflexivity.
Qed.

Lemma RT_grow s w w' c x : OA w -> opn w s -> (forall n, n <> tn s -> kids_of (gr w') n = kids_of (gr w) n) -> isC w c -> RT w' c x -> RT w c x.
Proof.
  intros A Hs Hk Hc [->|Pth]; [left; reflexivity|].
  destruct (path_grow_inv (gr w) (gr w') (tn s) ltac:(intros n Hn' y Y; rewrite <- (Hk n Hn'); exact Y) _ _ Pth) as [X|[X|X]]; [right; exact X| |].
  - exfalso. apply tn_inj in X. subst c. exact (proj1 (A s s Hc (or_introl eq_refl)) Hs).
  - exfalso. exact (proj1 (A c s Hc (or_intror X)) Hs).
Qed.
Lemma Om_grow s w w' :
  opn w s -> (forall n, n <> tn s -> kids_of (gr w') n = kids_of (gr w) n) -> (forall m d, m <> tn s -> get_edata (gr w') m d = get_edata (gr w) m d) ->
  consistent w' = consistent w -> opens (trace w') = opens (trace w) -> queue w' = queue w ->
  (forall y, needs w' s y -> needs w s y \/ isC w y) -> Om w -> Om w'.
Proof.
  intros Hs Hk He Cs Op Qu Hn [A [C D]]. unfold Om, OA, OCs, OD, isC, opn in *. rewrite Cs, Op, Qu. split; [|split].
  - intros c x Hc R. exact (A c x Hc (RT_grow s w w' c x A Hs Hk Hc R)).
  - intros x y Hx N. destruct (N.eq_dec x s) as [->|Hne].
    + destruct (Hn y N) as [N'|N']; [apply (C s y Hx N')|exact N'].
    + apply (C x y Hx), (needs_row w w' x y); [|exact N]. intros d. apply He. intros E. apply tn_inj in E. contradiction.
  - exact D.
Qed.
Lemma P3_grow s w w' t : OA w -> opn w s -> (forall n, n <> tn s -> kids_of (gr w') n = kids_of (gr w) n) -> consistent w' = consistent w ->
  P3 w t -> P3 w' t.
Proof. intros A Hs Hk Cs H c Hc R. unfold isC in Hc. rewrite Cs in Hc. exact (H c Hc (RT_grow s w w' c t A Hs Hk Hc R)). Qed.

Lemma Om_start w t : StoreOK w -> Om w -> P3 w t -> ~ In t (queue w) ->
  Om (startw w t).
Proof.
  intros HS [A [C D]] HP Hq. destruct (reset_task_facts w t HS) as [R1 R2 _ R4 R5 _ R7 R8].
  set (w2 := startw w t).
  assert (Op : forall x, opn w2 x <-> x = t \/ opn w x).
  { intros x. unfold opn. change (opens (trace w2)) with (t :: opens (trace (reset_task w t))). rewrite R4. cbn. split; intros [X|X]; auto. }
  assert (Sub : forall n x, In x (kids_of (gr w2) n) -> In x (kids_of (gr w) n)).
  { intros n x X. change (In x (kids_of (gr (reset_task w t)) n)) in X. destruct (N.eq_dec n (tn t)) as [->|Hn]; [|rewrite (R2 n Hn) in X; exact X].
    rewrite (reset_task_kids w t HS) in X. destruct X. }
  assert (RTs : forall c x, RT w2 c x -> RT w c x) by (intros c x [->|Pth]; [left; reflexivity|right; apply (path_sub (gr w) (gr w2) Sub); exact Pth]).
  split; [|split].
  - intros c x Hc R. change (isC w2 c) with (memN c (consistent (reset_task w t)) = true) in Hc. rewrite R5 in Hc.
    pose proof (RTs c x R) as R'. destruct (A c x Hc R') as [A1 A2]. split; [|exact A2].
    intros X. apply Op in X. destruct X as [->|X]; [exact (HP c Hc R')|exact (A1 X)].
  - intros x y Hx N. change (isC w2 y) with (memN y (consistent (reset_task w t)) = true). rewrite R5.
    apply Op in Hx. destruct (N.eq_dec x t) as [->|Hne].
    + exfalso. destruct N as [[c [st N]]|[r [dp [N _]]]]; unfold row in N; change (gr w2) with (gr (reset_task w t)) in N; rewrite R8 in N; discriminate.
    + destruct Hx as [->|Hx]; [contradiction|]. apply (C x y Hx), (needs_row w w2 x y); [|exact N]. intros d. apply R7. intros E. apply tn_inj in E. contradiction.
  - intros x Hx. apply Op in Hx. destruct Hx as [->|Hx]; [exact Hq|exact (D x Hx)].
Qed.
Lemma TT_start w t : TT None w -> ~ isC w t -> ~ opn w t -> TT None (startw w t).
Proof.
  intros [A B] Hc Ho. unfold TT. change (execs (trace (startw w t))) with (t :: execs (trace w)).
  split.
  - constructor; [|exact A]. intros X. destruct (B t X) as [Y|[Y|Y]]; [exact (Hc Y)|exact (Ho Y)|discriminate].
  - intros x [<-|X]; [right; left; left; reflexivity|]. destruct (B x X) as [Y|[Y|Y]]; [left; exact Y|right; left; right; exact Y|discriminate].
Qed.

Lemma opn_end w t o c x : opn (endw w t o c) x <-> opn w x /\ x <> t.
Proof. unfold opn. change (opens (trace (endw w t o c))) with (removeN t (opens (trace w))). apply In_removeN. Qed.
Lemma Om_end w t o c : Om w -> Om (endw w t o c).
Proof.
  intros [A [C D]]. split; [|split].
  - intros k x Hk R. destruct (A k x Hk R) as [A1 A2]. split; [|exact A2]. intros X. apply opn_end in X. exact (A1 (proj1 X)).
  - intros x y Hx N. apply opn_end in Hx. exact (C x y (proj1 Hx) N).
  - intros x Hx. apply opn_end in Hx. exact (D x (proj1 Hx)).
Qed.
Lemma TT_end w t o c : TT None w -> TT (Some t) (endw w t o c).
Proof.
  intros [A B]. split; [exact A|]. intros x X. change (In x (execs (trace w))) in X.
  destruct (B x X) as [Y|[Y|Y]]; [left; exact Y| |discriminate].
  destruct (N.eq_dec x t) as [->|Hne]; [right; right; reflexivity|right; left; apply opn_end; split; assumption].
Qed.
End OA.

(* C04, at-most-once, for all programs and checkers: in a bottom-up build that opens a session -- after ANY history, completed
   or aborted -- between two execution starts of the same task the task was scheduled again.  BuOnce.v (a second start of t
   needs a scheduling of t in between, or the first execution is still open) combined with NoReentry.v (no task starts while
   an execution of it is open). *)
Lemma opens_keep t b r : (forall o, ~ In (EExecEnd t o) b) -> In t (opens r) -> In t (opens (b ++ r)).
Proof.
  induction b as [|e b IH]; intros N X; cbn [app]; [exact X|].
  assert (Y : In t (opens (b ++ r))) by (apply IH; [intros o Z; apply (N o); right; exact Z|exact X]).
  destruct e; cbn [opens]; try exact Y; [right; exact Y|].
  apply In_removeN_other'; [exact Y|]. intros ->. apply (N o). left. reflexivity.
Qed.

Section B2.
Variable RC : rcid -> rchecker.
Variable OC : ocid -> ochecker.
Variable P : task -> prog.
Variable always : ocid.

Theorem bottom_up_second_execution_rescheduled fuel h ch :
  let w := new_session (snd (run_history RC OC P always fuel init_world h)) in
  match session_bottom_up RC OC P fuel w ch with
  | Done _ w' | Abort _ w' =>
      forall a t b c, trace w' = a ++ EExecStart t :: b ++ EExecStart t :: c -> ~ In (EExecStart t) b -> In (ESchedTask t) b
  | OutOfFuel => True
  end.
Proof.
  intros w.
  assert (SP : SPre w) by (apply SPre_new_session; apply (run_history_R RC OC P always fuel h init_world L_init)).
  pose proof (bottom_up_no_duplicate_execution RC OC P fuel w ch) as T.
  pose proof (session_bottom_up_N RC OC P fuel w ch SP) as N.
  assert (Fin : forall w', (exists seg, trace w' = seg ++ trace w /\
      forall a t b c, seg = a ++ EExecStart t :: b ++ EExecStart t :: c -> ~ In (EExecStart t) b ->
        In (ESchedTask t) b \/ ~ (exists o, In (EExecEnd t o) b)) -> NN (trace w') ->
      forall a t b c, trace w' = a ++ EExecStart t :: b ++ EExecStart t :: c -> ~ In (EExecStart t) b -> In (ESchedTask t) b).
  { intros w' [seg [E S]] HN a t b c Et Nb. change (trace w) with (@nil event) in E. rewrite app_nil_r in E. subst seg.
    destruct (S a t b c Et Nb) as [X|X]; [exact X|]. exfalso.
    apply (NN_spec _ HN a t (b ++ EExecStart t :: c) Et). apply opens_keep; [intros o Z; apply X; exists o; exact Z|left; reflexivity]. }
  destruct (session_bottom_up RC OC P fuel w ch) as [u w'|k w'|]; cbn [okS] in N; [|apply Fin; assumption|exact Logic.I].
  apply Fin; [exact T|apply N].
Qed.
End B2.

Section ON.
Variable gen : res -> option task.
Variable wck : rcid -> Prop.
Variable ord : task -> nat.
Variable RC : rcid -> rchecker.
Variable OC : ocid -> ochecker.
Variable P : task -> prog.
Variable sf : rcid -> res -> content -> Z.
Hypothesis HS : forall c env r v, rc_stamp (RC c) env r v = inl (sf c r v).
Hypothesis HWF : forall t, WFP gen wck t [] (P t).
Hypothesis HWO : forall t, WFO ord t (P t).
Let HNR : forall t, NR [] (P t). Proof. intros t. eapply WFP_NR. apply HWF. Qed.

Notation K := (K RC OC P sf).
Notation Q := (Q gen ord).
Notation Om := (Om gen).
Notation OCs := (OCs gen).
Notation needs := (needs gen).
Notation okA := (okA gen ord).
Notation outKA := (CertAll.outKA RC OC P sf).

Definition B (a : option task) (w : world) : Prop := VPre a w /\ K w /\ Q w /\ HB w.
Definition okB {A} (a : option task) (w : world) (m : outcome A) : Prop :=
  match m with
  | Done _ w1 => B a w1 /\ cur w1 = cur w /\ mono w w1 /\ FrameO a w w1 /\ opens (trace w1) = opens (trace w)
  | Abort _ _ => False
  | OutOfFuel => True
  end.
Lemma pack {A} a w (m : outcome A) X : B a w -> okR w m -> okN a w m -> okV a w m -> outKA m X -> okA m -> okH m -> okB a w m.
Proof.
  intros [Hw [Kw [Hq Hh]]] R N V KQ HA H. pose proof (step_pre a w m) as SP. specialize (SP) with (1 := Hw) (2 := R) (3 := N) (4 := V).
  destruct m as [x w1|k w1|]; cbn in *; [|exact HA|exact Logic.I].
  destruct (SP x w1 eq_refl) as [P1 Kp]. split; [split; [exact P1|split; [apply KQ|split; [exact HA|exact H]]]|exact Kp].
Qed.

Lemma B_S a w : B a w -> StoreOK w. Proof. intros H. apply H. Qed.
Lemma B_V a w : B a w -> V w. Proof. intros H. apply H. Qed.
Lemma B_reanchor a t w1 w2 : B a w1 -> B (Some t) w2 -> FrameO a w1 w2 -> opens (trace w2) = opens (trace w1) -> B a w2.
Proof.
  intros [[[_ [HO1 _]] _] _] [[[L2 [_ N2]] V2] R2] Fa O2.
  split; [split; [split; [exact L2|split; [eapply OI_pres; eassumption|exact N2]]|exact V2]|exact R2].
Qed.

Lemma KQH_geq w w' : geq w w' -> outs w' = outs w -> opens (trace w') = opens (trace w) -> K w /\ Q w /\ HB w -> K w' /\ Q w' /\ HB w'.
Proof.
  intros G O T [Kw [Hq Hh]]. split; [exact (geq_K RC OC P sf w w' G O Kw)|]. split; [exact (geq_Q gen ord w w' G Hq)|exact (HB_hq w w' (hq_geq w w' G O T) Hh)].
Qed.
Lemma B_lv a w w' : lv w w' -> geq w w' -> L w' -> B a w -> B a w'.
Proof. intros LV G L' [Hw KQH]. exact (conj (lv_VPre a w w' LV L' Hw) (KQH_geq w w' G (proj1 (proj2 LV)) (lv_opens w w' LV) KQH)). Qed.

Lemma edge_out w a y : StoreOK w -> V w -> HB w -> get_task_output w a <> None -> In (tn y) (kids_of (gr w) (tn a)) ->
  get_task_output w y <> None \/ opn w y.
Proof.
  intros HS0 [N0 _] Hh Ho E. destruct (task_edge w a y HS0 E) as [Ed|[c' [st Ed]]]; [destruct (Ho (N0 a (tn y) Ed))|exact (Hh a y c' st Ed)].
Qed.
Lemma step_out w c a y : StoreOK w -> V w -> HB w -> Om w -> isC w c -> RT w c a -> get_task_output w a <> None ->
  In (tn y) (kids_of (gr w) (tn a)) -> get_task_output w y <> None.
Proof.
  intros HS0 HV Hh [A _] Hc R Ho E. destruct (edge_out w a y HS0 HV Hh Ho E) as [Y|Y]; [exact Y|].
  destruct (proj1 (A c y Hc (RT_trans w c a y R (or_intror (path1 _ _ _ E)))) Y).
Qed.
Lemma reachC_out w c x : StoreOK w -> V w -> HB w -> Om w -> isC w c -> RT w c x -> get_task_output w x <> None.
Proof.
  intros HS0 HV Hh HO Hc R.
  assert (Base : get_task_output w c <> None).
  { destruct (proj1 (proj2 HV) c Hc) as [Y|Y]; [exact Y|]. exfalso. exact (proj1 (proj1 HO c c Hc (or_introl eq_refl)) Y). }
  refine (proj2 (RT_closed w (fun a => RT w c a /\ get_task_output w a <> None) HS0 _ c x (conj (or_introl eq_refl) Base) R)).
  intros a y [Ra Oa] E. split; [apply (RT_trans w c a y Ra); right; apply path1; exact E|apply (step_out w c a y); assumption].
Qed.
Definition reqf (f : nat) := require_bu_with OC (bu_make_consistent RC OC P f).

Lemma fuel_facts f :
  VMC (bu_make_consistent RC OC P f) /\ VREQ (reqf f) /\ CertAll.KAREQ RC OC P sf (reqf f) /\ AREQ gen ord RC OC P sf (reqf f) /\ HREQ (reqf f).
Proof.
  destruct (bu_VMC RC OC P f (bottom_up_V RC OC P f)) as [HmcV HreqV]. split; [exact HmcV|]. split; [exact HreqV|].
  split; [apply (require_bu_with_KA RC OC P sf); [exact HmcV|apply (bottom_up_KA RC OC P sf HS HNR f)]|].
  split; [apply require_bu_with_A; [exact HmcV|apply (bottom_up_A gen wck ord RC OC P sf HS HWF HWO f)]|].
  apply (require_bu_H RC OC P f).
Qed.

Lemma BES f a w t : B a w -> live (gr w) (tn t) = true -> reach a w t -> okB a w (bu_execute_and_schedule RC OC P f w t).
Proof.
  intros HB0 Lt R. pose proof HB0 as [Hw [Kw [Hq Hh]]].
  eapply pack; [exact HB0|apply (bottom_up_R RC OC P f); [apply Hw|exact Lt]|apply (bottom_up_N RC OC P f); [apply Hw|exact Lt|exact R]|
    apply (proj1 (bottom_up_V RC OC P f)); assumption|apply (proj1 (bottom_up_KA RC OC P sf HS HNR f) a); assumption|
    apply (proj1 (bottom_up_A gen wck ord RC OC P sf HS HWF HWO f) a); assumption|apply (proj1 (bottom_up_H RC OC P f)); [apply Hw|exact Hh]].
Qed.
Lemma BMC f a w t : B a w -> live (gr w) (tn t) = true -> reach a w t -> okB a w (bu_make_consistent RC OC P f w t).
Proof.
  intros HB0 Lt R. pose proof HB0 as [Hw [Kw [Hq Hh]]].
  eapply pack; [exact HB0|apply (bottom_up_R RC OC P f); [apply Hw|exact Lt]|apply (bottom_up_N RC OC P f); [apply Hw|exact Lt|exact R]|
    apply (proj1 (proj2 (bottom_up_V RC OC P f))); assumption|apply (proj1 (proj2 (bottom_up_KA RC OC P sf HS HNR f)) a); assumption|
    apply (proj1 (proj2 (bottom_up_A gen wck ord RC OC P sf HS HWF HWO f)) a); assumption|apply (proj1 (proj2 (bottom_up_H RC OC P f))); [apply Hw|exact Hh]].
Qed.
Lemma BRSN f a w t : B a w -> reach a w t -> okB a w (bu_require_scheduled_now RC OC P f w t).
Proof.
  intros HB0 R. pose proof HB0 as [Hw [Kw [Hq Hh]]].
  eapply pack; [exact HB0|apply (bottom_up_R RC OC P f); apply Hw|apply (bottom_up_N RC OC P f); [apply Hw|exact R]|
    apply (proj2 (proj2 (bottom_up_V RC OC P f))); assumption|apply (proj2 (proj2 (bottom_up_KA RC OC P sf HS HNR f)) a); assumption|
    apply (proj2 (proj2 (bottom_up_A gen wck ord RC OC P sf HS HWF HWO f)) a); assumption|apply (proj2 (proj2 (bottom_up_H RC OC P f))); [apply Hw|exact Hh]].
Qed.
(* req: the bottom-up require at fuel f (fuel_facts) or the top-down one (TdValid.td_facts) *)
Lemma BEXg req a w t : VREQ req /\ CertAll.KAREQ RC OC P sf req /\ AREQ gen ord RC OC P sf req /\ HREQ req ->
  B a w -> live (gr w) (tn t) = true -> reach a w t -> okB a w (execute_with RC OC P req w t).
Proof.
  intros [F2 [F3 [F4 F5]]] HB0 Lt R. pose proof HB0 as [Hw [Kw [Hq Hh]]].
  eapply pack; [exact HB0|apply execute_with_R; [exact (proj1 (proj1 F2))|apply Hw|exact Lt]|apply execute_with_N; [exact (proj1 F2)|apply Hw|exact Lt|exact R]|
    apply (execute_with_V RC OC P); assumption|apply (execute_with_KA RC OC P sf HS HNR _ a); assumption|
    apply (execute_with_A gen wck ord RC OC P sf HS HWF HWO _ a); assumption|apply execute_with_H; [exact F5|apply Hw|exact Hh]].
Qed.
Lemma BREQg req w x c s : VREQ req /\ CertAll.KAREQ RC OC P sf req /\ AREQ gen ord RC OC P sf req /\ HREQ req ->
  B (Some s) w -> cur w = Some s -> (ord x < ord s)%nat -> ~ In (tn x) (kidsT w s) ->
  okB (Some s) w (req w x c) /\ (forall o w', req w x c = Done o w' -> RowStep s w w' (tn x) (DRequire x c (oc_stamp (OC c) o))).
Proof.
  intros [F2 [F3 [F4 F5]]] HB0 Hc Ho Hn. pose proof HB0 as [Hw [Kw [Hq Hh]]].
  assert (Hw' : VPre (cur w) w) by (rewrite Hc; exact Hw).
  split.
  - eapply pack; [exact HB0|apply (proj1 (proj1 F2)); apply Hw| | | | |apply (require_H req w x c F5); [apply Hw|exact Hh]].
    + pose proof (proj2 (proj1 F2) w x c (proj1 Hw')) as X. rewrite Hc in X. exact X.
    + pose proof (proj2 F2 w x c Hw') as X. rewrite Hc in X. exact X.
    + apply (proj1 F3 w x c Hw' Kw).
    + apply (F4 w x c Hw' Kw Hq). intros t' X. rewrite Hc in X. inversion X; subst t'. split; assumption.
  - intros o w' E. apply (proj2 F3 w x c s o w' Hw' Kw Hc Hn E).
Qed.
Lemma BEX f a w t : B a w -> live (gr w) (tn t) = true -> reach a w t -> okB a w (execute_with RC OC P (reqf f) w t).
Proof. exact (BEXg (reqf f) a w t (proj2 (fuel_facts f))). Qed.
Lemma BREQ f w x c s : B (Some s) w -> cur w = Some s -> (ord x < ord s)%nat -> ~ In (tn x) (kidsT w s) ->
  okB (Some s) w (reqf f w x c) /\ (forall o w', reqf f w x c = Done o w' -> RowStep s w w' (tn x) (DRequire x c (oc_stamp (OC c) o))).
Proof. exact (BREQg (reqf f) w x c s (proj2 (fuel_facts f))). Qed.
Lemma start_B a w t : B a w -> live (gr w) (tn t) = true -> reach a w t ->
  B (Some t) (startw w t) /\ kidsT (startw w t) t = [] /\ ~ opn w t /\ OF (startw w t) t.
Proof.
  intros [Hw [Kw [Hq Hh]]] Lt R. unfold startw.
  destruct (exec_start_Pre a w t (proj1 Hw) Lt R) as [Hnot [P2 PR]].
  pose proof (rt_row w t (reset_task_facts w t (proj1 (proj1 (proj1 Hw))))) as R8.
  set (w2 := startw w t) in *.
  assert (V2 : V w2) by (apply exec_start_V; [apply Hw|apply Hw|exact Hnot]).
  destruct (exec_start_KT RC OC P sf w t (proj1 (proj1 (proj1 Hw))) Kw) as [K2 KT2]. fold w2 in K2, KT2.
  pose proof (Q_exec_start gen ord w t (proj1 (proj1 (proj1 Hw))) Hq) as Q2. fold w2 in Q2.
  split; [split; [split; [exact P2|exact V2]|split; [exact K2|split; [exact Q2|apply HB_start; [apply Hw|exact Hh]]]]|].
  split; [exact KT2|]. split; [exact Hnot|]. intros d. unfold row. change (gr w2) with (gr (reset_task w t)). rewrite R8. discriminate.
Qed.

Record LeafStep (t : task) (w w1 : world) (d : node) (dp : dep) : Prop := mkLS {
  ls_B : B (Some t) w1;
  ls_cur : cur w1 = Some t;
  ls_leaf : Leaf t w w1;
  ls_row : RowStep t w w1 d dp;
  ls_q3 : q3 w w1;
  ls_queue : queue w1 = queue w
}.

Lemma B_rw {X} (o : rwop X) w t : B (Some t) w -> cur w = Some t -> ~ In (rn (rw_res o)) (kidsT w t) -> rw_class gen t (kidsT w t) o ->
  exists xv w1, run_rw RC o w = Done xv w1 /\ LeafStep t w w1 (rn (rw_res o)) (rw_rec sf o (get_content w (rw_res o))).
Proof.
  intros [Hw [Kw [Hq Hh]]] Hc Hx Hg. pose proof (proj1 (proj1 Hw)) as HL. pose proof (proj1 HL) as HS0.
  destruct (run_rw_ret gen ord RC sf HS o w t HS0 Hc (cur_live _ w t Hw Hc) Hq Hg (fun _ => Hx)) as [xv [w1 Eq]].
  destruct (run_rw_row RC sf HS o w t xv w1 HS0 Hc Hx Eq) as [_ RS].
  exists xv, w1. split; [exact Eq|]. pose proof (run_rw_chain RC o w) as Hm.
  destruct (rw_A gen ord RC OC P sf o t w xv w1 Hw Hc Kw Hq Hg Eq RS) as [P1 [C1 [K1 Q1]]].
  pose proof (proj1 (rw_chain_leaf t w _ HS0 Hc Hm)) as LF. pose proof (rw_q3 RC o w HL) as Q3.
  pose proof (rw_chain_queue w _ Hm) as QQ. pose proof (rw_hq RC o w HL) as HQ.
  rewrite Eq in LF, Q3, QQ, HQ. cbn [leafO q3O hqO] in LF, Q3, QQ, HQ.
  constructor; [|exact C1|exact LF|exact RS|exact Q3|exact QQ].
  split; [exact P1|]. split; [exact K1|]. split; [exact Q1|eapply HB_hq; eassumption].
Qed.
Lemma cur_opn a w t : B a w -> cur w = Some t -> opn w t.
Proof. intros H Hc. apply (proj2 (proj2 (proj2 (B_V a w H)))). exact Hc. Qed.

Lemma q3_TT e w w1 : q3 w w1 -> consistent w1 = consistent w -> TT e w -> TT e w1.
Proof.
  intros [[s [T F]] _] Cs [A0 B0]. unfold TT, isC, opn. rewrite T, execs_app, (execs_ev3 s F), (opens_app3 s _ F), Cs. split; assumption.
Qed.

Lemma Om_leaf {A} (o : rwop A) t w w1 : LeafStep t w w1 (rn (rw_res o)) (rw_rec sf o (get_content w (rw_res o))) -> B (Some t) w -> cur w = Some t -> Om w -> OF w t ->
  rw_class gen t (kidsT w t) o -> Om w1 /\ OF w1 t /\ (forall e, TT e w -> TT e w1).
Proof.
  set (r := rw_res o). set (dp := rw_rec sf o (get_content w (rw_res o))). intros [B1 C1 LF [RK [RD RO]] Q3 Qu] HB0 Hc HO HF Hcl.
  assert (Hd1 : dp <> DReserved) by (destruct o; discriminate).
  assert (Hg : is_read (Some dp) = true -> gen r = None \/ exists g, gen r = Some g /\ In (tn g) (kidsT w t)) by (destruct o; [intros _; exact Hcl|discriminate|discriminate]).
  pose proof (cur_opn _ w t HB0 Hc) as Ot.
  pose proof (q3_opens w w1 Q3) as Op.
  split; [|split].
  - apply (Om_grow gen t w w1 Ot); [apply (lf_grows _ _ _ LF)|apply (lf_eother _ _ _ LF)|apply (lf_cons _ _ _ LF)|exact Op|exact Qu| |exact HO].
    intros y N. left. destruct N as [[c [st N]]|[r' [dp' [N [I E]]]]].
    + left. exists c, st. rewrite <- (RO (tn y)); [exact N|]. apply tn_rn.
    + destruct (N.eq_dec (rn r') (rn r)) as [Er|Er].
      * apply rn_inj in Er. subst r'. rewrite RD in N. inversion N; subst dp'.
        destruct (Hg I) as [G|[g [G Ig]]]; [congruence|]. rewrite G in E. inversion E; subst g.
        destruct (task_edge w t y (B_S _ w HB0) Ig) as [Ed|[c' [st' Ed]]]; [exfalso; exact (HF (tn y) Ed)|left; exists c', st'; exact Ed].
      * right. exists r', dp'. split; [rewrite <- (RO (rn r') Er); exact N|split; assumption].
  - intros d. destruct (N.eq_dec d (rn r)) as [->|Hne]; [rewrite RD; intros X; inversion X; contradiction|rewrite (RO d Hne); apply HF].
  - intros e. apply q3_TT; [exact Q3|apply (lf_cons _ _ _ LF)].
Qed.
Definition okO {A} (m : outcome A) (Post : A -> world -> Prop) : Prop := match m with Done x w' => Post x w' | _ => True end.

(* at the end of the program of t everything reachable from t is settled: the first edge of a path out of t is a recorded
   require (no reservation is left: OF) of a task that is consistent (OCs), and from there OA *)
Lemma Fin_end w t o c : B (Some t) w -> Om w -> OF w t -> opn w t -> Fin (endw w t o c) t.
Proof.
  intros B3 [A [C D]] F3 Ot3 x Rx. pose proof (B_S _ w B3) as HS0.
  assert (Res : x = t \/ (~ opn w x /\ ~ In x (queue w))).
  { destruct Rx as [<-|Pth]; [left; reflexivity|right]. change (path (gr w) (tn t) (tn x)) in Pth.
    assert (Fst : exists y, In (tn y) (kids_of (gr w) (tn t)) /\ RT w y x).
    { inversion Pth as [u v Ik|u k v Ik Pk]; subst; [exists x; split; [exact Ik|left; reflexivity]|].
      pose proof (even_tn k (path_src_task _ _ _ HS0 Pk)) as Ek. rewrite Ek in Ik, Pk. exists (un k). split; [exact Ik|right; exact Pk]. }
    destruct Fst as [y [Ik Ry]]. destruct (task_edge w t y HS0 Ik) as [Ed|[c' [st Ed]]]; [destruct (F3 _ Ed)|].
    exact (A y x (C t y Ot3 (or_introl (ex_intro _ c' (ex_intro _ st Ed)))) Ry). }
  destruct Res as [->|[R1 R2]]; [split; [intros Y; apply opn_end in Y; exact (proj2 Y eq_refl)|exact (D t Ot3)]|].
  split; [intros Y; apply opn_end in Y; exact (R1 (proj1 Y))|exact R2].
Qed.

Lemma TT_same e w w' : trace w' = trace w -> consistent w' = consistent w -> TT e w -> TT e w'.
Proof. intros T C. unfold TT, isC, opn. rewrite T, C. trivial. Qed.

Lemma require_B mc w s x c : VMC mc -> B (Some s) w -> cur w = Some s -> (ord x < ord s)%nat -> ~ In (tn x) (kidsT w s) ->
  (exists w3, require_with OC mc w x c = Abort ACycle w3) \/
  exists w3, Reserved w s x w3 /\ RowStep s w w3 (tn x) DReserved /\ B (Some s) w3 /\ cur w3 = Some s /\ reach (Some s) w3 x /\
    require_with OC mc w x c =
    bind (mc w3 x) (fun o w4 => Done o (recorded (emit w4 (ERequireEnd x c (oc_stamp (OC c) o) o)) s x c (oc_stamp (OC c) o))).
Proof.
  intros HV [Hw [Kw [Hq Hh]]] Hc Ho Hnew. pose proof (proj1 (proj1 (proj1 Hw))) as H.
  destruct (require_with_sub RC OC mc w x c s ltac:(rewrite Hc; exact Hw) Hc HV) as [ar [w3 [E [RS X]]]].
  destruct ar; [destruct X as [_ [R3 EQ]]; right; exists w3|left; exists w3; exact X|destruct X].
  split; [exact RS|]. split; [apply (reserve_row s w x c w3 H Hnew E)|].
  split; [|split; [rewrite (proj2 (proj2 (rs_q3 _ _ _ _ RS))); exact Hc|split; [exact R3|exact EQ]]].
  split; [apply RS|]. split; [apply (reserve_K RC OC P sf w s x w3 RS H Hc Kw)|]. split; [apply (Q_reserve gen ord s w w3 x (leaf_others s w w3 (rs_leaf _ _ _ _ RS)) (reserve_row s w x c w3 H Hnew E) Ho Hq)|].
  apply (HB_hq w); [|exact Hh]. eapply hq_trans; [eapply hq_trans; [apply (hq_emit w (ERequireStart x c)); reflexivity|apply hq_goc_task]|].
  pose proof (hq_add_dependency (at_require w x c) (tn s) (tn x) DReserved (proj1 (goc_task_ok (emit w (ERequireStart x c)) x H)) ltac:(intros; discriminate)) as X. rewrite E in X. apply X. discriminate.
Qed.
Lemma reserve_Om w s x w3 : B (Some s) w -> cur w = Some s -> Reserved w s x w3 -> RowStep s w w3 (tn x) DReserved -> Om w -> Om w3.
Proof.
  intros HB0 Hc RS [_ [RD RO]] HO. destruct (rs_same _ _ _ _ RS) as [Qu [Co _]].
  apply (Om_grow gen s w w3 (cur_opn _ w s HB0 Hc)); [intros n Hn; apply (rs_rows _ _ _ _ RS n Hn)|intros m d Hm; apply (rs_rows _ _ _ _ RS m Hm)|exact Co|
    apply q3_opens, RS|exact Qu| |exact HO].
  intros y N. left. destruct N as [[c' [st' N]]|[r [dp [N [I E']]]]].
  - destruct (N.eq_dec (tn y) (tn x)) as [Ey|Ey]; [rewrite Ey, RD in N; discriminate|]. left. exists c', st'. rewrite <- (RO _ Ey). exact N.
  - right. exists r, dp. split; [rewrite <- (RO (rn r)); [exact N|intros X; symmetry in X; exact (tn_rn _ _ X)]|split; assumption].
Qed.

(* when s records its require of x, x is consistent: top-down it was marked inside make_task_consistent; bottom-up it is
   marked in the same step (Om_update_mark), everything reachable from it being settled *)
Lemma Om_update s x c st w : opn w s -> isC w x -> Om w -> Om (set_gr w (insert_edata (gr w) (tn s) (tn x) (DRequire x c st))).
Proof.
  intros Os Cx. destruct (update_rows w s x (DRequire x c st)) as [Ins [_ [New Own]]]. apply (Om_grow gen s w _ Os); try reflexivity.
  - intros m d Hm. apply (Ins m Hm).
  - intros y [[c' [st' N]]|[r [dp [N IE]]]].
    + destruct (N.eq_dec (tn y) (tn x)) as [E|Hy]; [apply tn_inj in E; subst y; right; exact Cx|left; left; exists c', st'; rewrite <- (Own _ Hy); exact N].
    + left. right. exists r, dp. split; [rewrite <- (Own (rn r)); [exact N|intros E; symmetry in E; exact (tn_rn _ _ E)]|exact IE].
Qed.
Lemma Om_update_mark s x c st w : opn w s -> Om w -> Fin w x ->
  Om (mark_consistent (set_gr w (insert_edata (gr w) (tn s) (tn x) (DRequire x c st))) x).
Proof. intros Os HO HF. apply (Om_update s x c st (mark_consistent w x)); [exact Os|apply isC_mark; left; reflexivity|apply Om_mark; assumption]. Qed.

Lemma Fin_qq w w' t : qq w w' -> Fin w t -> Fin w' t.
Proof.
  intros Hq HF x R. pose proof (qq_opens w w' Hq) as Op. destruct Hq as [G [_ [_ Q0]]].
  destruct (HF x (geq_RT w w' t x G R)) as [A1 A2]. unfold opn. rewrite Op. split; [exact A1|intros X; apply A2, Q0, X].
Qed.

Lemma row_kid w x d dp : StoreOK w -> row w x d = Some dp -> In d (kids_of (gr w) (tn x)).
Proof. intros [W _] R. apply (wf_edata _ W). unfold row in R. rewrite R. discriminate. Qed.
Lemma written_of_row w t r dp : StoreOK w -> row w t (rn r) = Some dp -> is_write (Some dp) = true -> In r (resources_written_by w t).
Proof.
  intros HS0 R I. unfold resources_written_by. apply in_map_iff. exists (rn r, Some dp). split; [cbn; apply un_rn|].
  apply filter_In. split; [|exact I]. unfold get_outgoing_edges. apply in_map_iff. exists (rn r). split; [unfold row in R; rewrite R; reflexivity|eapply row_kid; eassumption].
Qed.
Lemma row_of_written w t r : StoreOK w -> In r (resources_written_by w t) -> exists dp, row w t (rn r) = Some dp /\ is_write (Some dp) = true.
Proof.
  intros HS0 Ir. unfold resources_written_by in Ir. apply in_map_iff in Ir. destruct Ir as [[v e] [Er Ip]]. apply filter_In in Ip. destruct Ip as [Ip Iw]. cbn [fst snd] in *.
  destruct (proj2 (outgoing_spec (gr w) (tn t) (proj1 HS0)) v e Ip) as [E _]. subst e. destruct (get_edata (gr w) (tn t) v) as [dp|] eqn:Ed; [|discriminate].
  destruct (proj1 (proj2 HS0) _ _ _ Ed) as [_ D]. destruct dp as [|y c st|r' c st|r' c st]; try discriminate. cbn in D. subst v. rewrite un_rn in Er. subst r'.
  exists (DWrite r c st). split; [exact Ed|reflexivity].
Qed.

Definition stale (ro : bool) (w : world) (r : res) (y : task) : Prop :=
  exists c st, (row w y (rn r) = Some (DRead r c st) \/ (ro = false /\ row w y (rn r) = Some (DWrite r c st))) /\ rejects RC w r c st.
Lemma hitR_stale ro w r y : StoreOK w -> hitR RC ro w r y <-> stale ro w r y.
Proof.
  intros HS0. split.
  - intros [[u e] [Ip [-> Hh]]]. cbn [fst snd] in *. destruct e as [[|y' c st|r' c st|r' c st]|]; try contradiction;
      pose proof (row_of_incoming w (rn r) u _ HS0 Ip) as R; (destruct (proj1 (proj2 HS0) _ _ _ R) as [_ D]; cbn in D; apply rn_inj in D; subst r'); exists c, st.
    + split; [left; exact R|exact Hh].
    + split; [right; split; [apply Hh|exact R]|apply Hh].
  - intros [c [st [[R|[Hro R]] Hr]]]; [exists (tn y, Some (DRead r c st))|exists (tn y, Some (DWrite r c st))];
      (split; [exact (incoming_of_row w y _ _ HS0 R)|split; [symmetry; apply un_tn|cbn [snd]]]); [exact Hr|split; assumption].
Qed.
Definition staleQ (w : world) (t : task) (o : Z) (y : task) : Prop :=
  exists c st, row w y (tn t) = Some (DRequire t c st) /\ oc_check (OC c) o st = false.
Lemma hitQ_stale w t o y : StoreOK w -> (exists p, In p (incoming w (tn t)) /\ hitQ OC o p y) <-> staleQ w t o y.
Proof.
  intros HS0. split.
  - intros [[u e] [Ip [-> Hh]]]. cbn [fst snd] in *. destruct e as [[|y' c st|r' c st|r' c st]|]; try contradiction.
    pose proof (row_of_incoming w (tn t) u _ HS0 Ip) as R. destruct (proj1 (proj2 HS0) _ _ _ R) as [_ D]. cbn in D. apply tn_inj in D. subst y'. exists c, st. split; assumption.
  - intros [c [st [R Hh]]]. exists (tn y, Some (DRequire t c st)). split; [exact (incoming_of_row w y _ _ HS0 R)|split; [symmetry; apply un_tn|exact Hh]].
Qed.

Lemma initial_queue w ch y : StoreOK w ->
  In y (queue (fold_left (schedule_tasks_affected_by RC) ch w)) <-> In y (queue w) \/ exists r, In r ch /\ stale false w r y.
Proof.
  intros HS0. rewrite (changed_queue RC w ch y).
  split; (intros [Y|[r [Ir Y]]]; [left; exact Y|right; exists r; split; [exact Ir|apply (hitR_stale false w r y HS0); exact Y]]).
Qed.
Lemma schedule_after_queue w t o y : StoreOK w -> In y (queue (schedule_after RC OC w t o)) <->
  In y (queue w) \/ (exists r, In r (resources_written_by w t) /\ stale true w r y) \/ staleQ w t o y.
Proof.
  intros HS0. rewrite (after_queue RC OC w t o y), (hitQ_stale w t o y HS0). split.
  - intros [Y|[[r [Ir Y]]|Y]]; [left; exact Y|right; left; exists r; split; [exact Ir|apply (hitR_stale true w r y HS0); exact Y]|right; right; exact Y].
  - intros [Y|[[r [Ir Y]]|Y]]; [left; exact Y|right; left; exists r; split; [exact Ir|apply (hitR_stale true w r y HS0); exact Y]|right; right; exact Y].
Qed.
(* what Om_scheduled needs of a task x queued after t has run; all three follow from x depending on t (SF_of_kid) *)
Definition SF (w0 : world) (t x : task) : Prop := P3 w0 x /\ ~ opn w0 x /\ ~ RT w0 t x.
Lemma Om_scheduled w wm t : chain sstep w wm -> (forall y, In y (queue wm) -> In y (queue w) \/ SF w t y) -> Om w -> Fin w t -> Om wm /\ Fin wm t.
Proof.
  intros C HQ [A [Cc D]] HF. pose proof (sched_geq w wm C) as G. pose proof (sched_lv w wm C) as LV. pose proof (lv_opens _ _ LV) as Op. pose proof (proj1 (proj2 (proj2 LV))) as Cs.
  split.
  - unfold Om, OA, OCs, OD, isC, opn. rewrite Op, Cs. split; [|split].
    + intros c x Hc R. pose proof (geq_RT w wm c x G R) as R'. destruct (A c x Hc R') as [A1 A2]. split; [exact A1|].
      intros Y. destruct (HQ x Y) as [Y'|[S1 _]]; [exact (A2 Y')|exact (S1 c Hc R')].
    + intros x y Hx N. apply (Cc x y Hx). eapply geq_needs; eassumption.
    + intros x Hx Y. destruct (HQ x Y) as [Y'|[_ [S2 _]]]; [exact (D x Hx Y')|exact (S2 Hx)].
  - intros x R. pose proof (geq_RT w wm t x G R) as R'. destruct (HF x R') as [F1 F2]. unfold opn. rewrite Op. split; [exact F1|].
    intros Y. destruct (HQ x Y) as [Y'|[_ [_ S3]]]; [exact (F2 Y')|exact (S3 R')].
Qed.

Lemma SF_of_kid w0 t x : StoreOK w0 -> Om w0 -> P3 w0 t -> In (tn t) (kids_of (gr w0) (tn x)) -> needs w0 x t -> SF w0 t x.
Proof.
  intros [W _] [A [C _]] HP Ik N. split; [|split].
  - intros c Hc R. apply (HP c Hc). apply (RT_trans w0 c x t R). right. apply path1. exact Ik.
  - intros Ox. apply (HP t (C x t Ox N)). left. reflexivity.
  - intros R. apply (WF_acyclic (gr w0) (tn t) W). destruct R as [->|Pth]; [apply path1; exact Ik|eapply path_trans; [exact Pth|apply path1; exact Ik]].
Qed.
Lemma stale_SF w t r y : StoreOK w -> Q w -> Om w -> P3 w t -> In r (resources_written_by w t) -> stale true w r y -> SF w t y.
Proof.
  intros HS0 Hq HO HP Ir [c [st [[E|[Hro _]] _]]]; [|discriminate Hro]. destruct (row_of_written w t r HS0 Ir) as [dpw [Rw Iw]].
  assert (Gt : gen r = Some t) by (apply (proj1 (proj2 (Hq t)) r dpw Rw Iw)).
  destruct (proj2 (proj2 (Hq y)) r (DRead r c st) E eq_refl) as [G0|[g [G0 Bf]]]; [congruence|]. rewrite Gt in G0. inversion G0; subst g.
  apply (SF_of_kid w t y HS0 HO HP (before_in _ _ _ Bf)). right. exists r, (DRead r c st). split; [exact E|split; [reflexivity|exact Gt]].
Qed.
Lemma staleQ_SF w t o y : StoreOK w -> Om w -> P3 w t -> staleQ w t o y -> SF w t y.
Proof. intros HS0 HO HP [c [st [E _]]]. apply (SF_of_kid w t y HS0 HO HP (row_kid w y _ _ HS0 E)). left. exists c, st. exact E. Qed.

Lemma schedule_after_O a w t o : B a w -> Om w -> TT (Some t) w -> Fin w t -> P3 w t ->
  Om (schedule_after RC OC w t o) /\ TT None (schedule_after RC OC w t o) /\ isC (schedule_after RC OC w t o) t.
Proof.
  intros HB0 HO HT HF HP. pose proof (B_S _ w HB0) as HS0. pose proof (proj1 (proj2 (proj2 HB0))) as Hq.
  destruct (schedule_after_chain RC OC w t o) as [wm [C E]]. pose proof (sched_lv w wm C) as LV.
  destruct (Om_scheduled w wm t C) as [Om' Fin']; [|exact HO|exact HF|].
  { intros y Y. assert (Y' : In y (queue (schedule_after RC OC w t o))) by (rewrite E; exact Y). apply (schedule_after_queue w t o y HS0) in Y'.
    destruct Y' as [Y'|[[r [Ir Hh]]|Hh]]; [left; exact Y'|right; eapply stale_SF; eassumption|right; eapply staleQ_SF; eassumption]. }
  rewrite E. split; [apply Om_mark; assumption|]. split; [|apply isC_mark; left; reflexivity].
  apply TT_mark. apply (q3_TT (Some t) w wm (proj1 LV) (proj1 (proj2 (proj2 LV))) HT).
Qed.
Lemma not_open_below a w t x : B a w -> reach a w t -> RT w t x -> ~ opn w x.
Proof.
  intros HB0 R Rx Ox. pose proof (proj1 (proj2 (proj1 (proj1 HB0)))) as HOI.
  destruct a as [c0|]; cbn in HOI; [|unfold opn in Ox; rewrite HOI in Ox; exact Ox].
  apply (reach_not_anc (Some c0) w x (B_S _ w HB0)) with (c := c0); [|reflexivity|apply HOI; exact Ox].
  intros c Hc. destruct Rx as [<-|Pth]; [apply R; exact Hc|eapply path_trans; [apply R; exact Hc|exact Pth]].
Qed.


Lemma pop_B a w m : B a w -> L (popped w m) -> B a (popped w m) /\ qq w (popped w m).
Proof.
  intros [Hw KQH] L1. set (w1 := popped w m).
  assert (Q1 : q3 w w1) by (apply q3_same; reflexivity).
  split.
  - split; [split; [eapply q3_Pre; [exact Q1|exact L1|apply Hw]|apply pop_V; apply Hw]|exact (KQH_geq w w1 (geq_same w w1 eq_refl) eq_refl eq_refl KQH)].
  - apply qq_same; try reflexivity. intros x X. cbn in X. apply In_removeN in X. apply In_sort_queue. apply X.
Qed.

Definition rsnPost (a : option task) (t : task) (r : option Z) (w' : world) : Prop :=
  Om w' /\ TT None w' /\ match r with Some _ => isC w' t | None => reach a w' t /\ forall x, RT w' t x -> ~ In x (queue w') end.

Lemma queued_P3 w m : Om w -> In m (queue w) -> P3 w m.
Proof. intros [A _] Im c Hc R. exact (proj2 (A c m Hc R) Im). Qed.
Lemma pop_O a w m w1 : B a w -> Om w -> TT None w -> In m (queue w) -> w1 = popped w m -> L w1 ->
  B a w1 /\ Om w1 /\ TT None w1 /\ P3 w1 m /\ ~ In m (queue w1).
Proof.
  intros HB0 HO HT Im -> L1. destruct (pop_B a w m HB0 L1) as [B1 QQ1].
  split; [exact B1|]. split; [apply (Om_qq gen w _ QQ1 HO)|]. split; [apply (TT_qq None w _ QQ1 HT)|].
  split; [apply (P3_qq w _ m QQ1 (queued_P3 w m HO Im))|].
  intros Y. cbn in Y. apply In_removeN in Y. apply (proj2 Y). reflexivity.
Qed.

Lemma bottom_up_start w ch : VS w -> K w -> Q w -> HB w ->
  let w0 := set_queue w [] in
  let w2 := emit (set_cur (fold_left (schedule_tasks_affected_by RC) ch w0) None) EBuildStart in
  L w0 /\ lv w0 (fold_left (schedule_tasks_affected_by RC) ch w0) /\ lv w0 w2 /\ B None w2.
Proof.
  intros VSw Kw Qw Hhw w0. cbv zeta. destruct (sched_changed_VS RC w ch VSw) as [C0 VS1]. fold w0 in C0, VS1.
  set (w1 := fold_left (schedule_tasks_affected_by RC) ch w0) in *. pose proof (sched_lv w0 w1 C0) as Q01.
  assert (L0 : L w0). { destruct (proj1 (proj1 (proj1 VSw))) as [H1 [H2 H3]]. split; [exact H1|]. split; [exact H2|intros x []]. }
  set (w2 := emit (set_cur w1 None) EBuildStart).
  assert (Q12 : lv w1 w2).
  { eapply lv_trans; [apply (lv_same w1 (set_cur w1 None)); try reflexivity; [cbn; symmetry; apply VS1|trivial]|apply lv_emit; reflexivity]. }
  pose proof (lv_trans _ _ _ Q01 Q12) as Q02.
  split; [exact L0|]. split; [exact Q01|]. split; [exact Q02|]. split; [apply build_start_V; exact VS1|].
  apply (KQH_geq w0 w2); [eapply geq_trans; [exact (sched_geq w0 w1 C0)|apply geq_same; reflexivity]|apply Q02|apply (lv_opens _ _ Q02)|].
  exact (KQH_geq w w0 (geq_same w w0 eq_refl) eq_refl eq_refl (conj Kw (conj Qw Hhw))).
Qed.
Lemma start_Om w0 w2 : lv w0 w2 -> opens (trace w0) = [] -> (forall c x, isC w0 c -> RT w2 c x -> ~ In x (queue w2)) -> Om w2.
Proof.
  intros LV Op HQ. assert (No : forall x, ~ opn w2 x) by (intros x; unfold opn; rewrite (lv_opens _ _ LV), Op; intros []).
  split; [|split]; [|intros x y Ox; destruct (No x Ox)|intros x Ox; destruct (No x Ox)].
  intros c x Hc R. unfold isC in Hc. rewrite (proj1 (proj2 (proj2 LV))) in Hc. split; [apply No|exact (HQ c x Hc R)].
Qed.
Lemma lv_TT e w w' : lv w w' -> TT e w -> TT e w'.
Proof. intros LV. exact (q3_TT e w w' (proj1 LV) (proj1 (proj2 (proj2 LV)))). Qed.

(* between sessions nothing executes: a recorded require points to a task with an output, since the target of an edge is a
   known task and every known task has an output (FullOut.v) *)
Definition HBs (w : world) : Prop := forall x y c st, row w x (tn y) = Some (DRequire y c st) -> get_task_output w y <> None.
Lemma HBs_HB w : HBs w -> HB w. Proof. intros H x y c st X. left. exact (H x y c st X). Qed.
Lemma HB_HBs w : HB w -> opens (trace w) = [] -> HBs w.
Proof. intros H O x y c st X. destruct (H x y c st X) as [Y|Y]; [exact Y|unfold opn in Y; rewrite O in Y; destruct Y]. Qed.
Lemma Full_HBs w : StoreOK w -> Full w -> HBs w.
Proof. intros HS0 HF x y c st X. apply HF. exact (proj2 (wf_closed _ (proj1 HS0) _ _ (row_kid w x _ _ HS0 X))). Qed.
Lemma VS_opens w : VS w -> opens (trace w) = []. Proof. intros [[[_ [HOI _]] _] _]. exact HOI. Qed.

Lemma HBs_new_session w : HBs w -> HB (new_session w).
Proof. intros H. apply HBs_HB. exact H. Qed.

Definition SB (w : world) : Prop := (VS w /\ K w /\ Q w) /\ HB w.

Lemma open_no_output a w t : B a w -> opn w t -> get_task_output w t = None.
Proof. intros HB0 Ot. apply (proj1 (proj2 (proj2 (B_V a w HB0)))). exact Ot. Qed.
Lemma opn_start w t x : opn (startw w t) x <-> x = t \/ opn w x.
Proof. unfold opn. change (opens (trace (startw w t))) with (t :: opens (trace w)). cbn. split; intros [Y|Y]; auto. Qed.

(* What the traversal carries along with Om and TT.  X is indexed by own (the task popped from the queue, until it starts), e
   (the task whose execution has ended, until schedule_after has dealt with its dependents) and F (a set of executing tasks:
   an execution that starts with isnew = true belongs to F while it lasts; who uses X chooses what F is good for).  A task m
   taken from the queue goes
   (None, None) -x_pop-> (Some m, None) -x_start-> (None, None) -x_end-> (None, Some m) -x_sched-> (None, None); a task that
   is executed because it is new starts and ends at (None, None) and is in F in between.  The premises of x_rw and x_reserve
   are what B_rw and require_B conclude. *)
Definition Fopen (F : task -> Prop) (w : world) : Prop := forall t, F t -> opn w t.
Lemma Fopen_opens F w w' : opens (trace w') = opens (trace w) -> Fopen F w -> Fopen F w'.
Proof. intros E H t Ft. unfold opn. rewrite E. exact (H t Ft). Qed.
Definition withF (isnew : bool) (t : task) (F : task -> Prop) : task -> Prop := fun x => (isnew = true /\ x = t) \/ F x.

Record Carried (X : option task -> option task -> (task -> Prop) -> world -> Prop) : Prop := mkCarried {
  x_rw : forall A (o : rwop A) F t w xv w1, run_rw RC o w = Done xv w1 ->
    LeafStep t w w1 (rn (rw_res o)) (rw_rec sf o (get_content w (rw_res o))) -> B (Some t) w -> cur w = Some t -> Om w ->
    ~ In (rn (rw_res o)) (kidsT w t) -> rw_class gen t (kidsT w t) o -> X None None F w -> X None None F w1;
  x_reserve : forall F s x w w3, get_task_output w s = None -> Reserved w s x w3 -> RowStep s w w3 (tn x) DReserved ->
    X None None F w -> X None None F w3;
  x_emit : forall own e F w ev, ev3 ev = true -> X own e F w -> X own e F (emit w ev);
  x_update : forall F s x c o w, get_task_output w s = None -> get_task_output w x = Some o ->
    X None None F w -> X None None F (set_gr w (insert_edata (gr w) (tn s) (tn x) (DRequire x c (oc_stamp (OC c) o))));
  x_mark : forall own e F w t, X own e F w -> X own e F (mark_consistent w t);
  x_start : forall (isnew : bool) a F w t, B a w -> Om w -> P3 w t -> ~ opn w t -> (isnew = true -> get_task_output w t = None) ->
    X (if isnew then None else Some t) None F w -> X None None (withF isnew t F) (startw w t);
  x_end : forall (isnew : bool) F w t o c, B (Some t) w -> Om w -> opn w t -> OF w t -> ~ F t ->
    X None None (withF isnew t F) w -> X None (if isnew then None else Some t) F (endw w t o c)
}.
(* the two steps that only a bottom-up build makes *)
Record CarriedBU (X : option task -> option task -> (task -> Prop) -> world -> Prop) : Prop := mkCarriedBU {
  x_base : Carried X;
  x_sched : forall F w t o, StoreOK w -> get_task_output w t = Some o -> X None (Some t) F w -> X None None F (schedule_after RC OC w t o);
  x_pop : forall e F w m, X None e F w -> X (Some m) e F (popped w m)
}.
Lemma carried_True : CarriedBU (fun _ _ _ _ => True).
Proof. constructor; [constructor|..]; intros; exact Logic.I. Qed.

Section Ext.
Variable X : option task -> option task -> (task -> Prop) -> world -> Prop.
Hypothesis HX : Carried X.

(* lim: a condition on the executing task (top-down: the fuel bound of the interpreter, TdValid.require_with_T; bottom-up: none) *)
Definition XREQ (lim : task -> Prop) (req : world -> task -> ocid -> outcome Z) : Prop :=
  forall F w x c s, lim s -> B (Some s) w -> cur w = Some s -> (ord x < ord s)%nat -> ~ In (tn x) (kidsT w s) -> Om w -> TT None w -> OF w s ->
    Fopen F w -> X None None F w ->
    okB (Some s) w (req w x c) /\ (forall o w', req w x c = Done o w' -> RowStep s w w' (tn x) (DRequire x c (oc_stamp (OC c) o))) /\
    okO (req w x c) (fun _ w' => Om w' /\ TT None w' /\ X None None F w').

Lemma exec_prog_X lim req t : XREQ lim req -> lim t -> forall F p w, B (Some t) w -> cur w = Some t -> Om w -> TT None w -> OF w t ->
  Fopen F w -> X None None F w -> WFP gen wck t (kidsT w t) p -> WFO ord t p ->
  okO (exec_prog RC OC req p w)
    (fun _ w' => Om w' /\ TT None w' /\ OF w' t /\ B (Some t) w' /\ cur w' = Some t /\ X None None F w').
Proof.
  intros HR Hl F. induction p as [o| |x c k IH|A o k IH] using prog_rw_ind; intros w HB0 Hc HO HT HF HFO HXw HW HWo; cbn [exec_prog okO].
  - split; [exact HO|split; [exact HT|split; [exact HF|split; [exact HB0|split; [exact Hc|exact HXw]]]]].
  - exact Logic.I.
  - destruct (WFP_req_inv gen wck t _ x c k HW) as [Hx Hk]. destruct (WFO_req_inv ord t x c k HWo) as [Hox Hok].
    destruct (HR F w x c t Hl HB0 Hc Hox Hx HO HT HF HFO HXw) as [BQ [RS RO]].
    eapply holds_bind; [exact RO|]. intros ox w1 E [O1 [T1 X1]].
    destruct (holds_done BQ E) as [B1 [C1 [_ [_ Op1]]]]. rewrite Hc in C1. destruct (RS ox w1 E) as [RK [RD RO']].
    assert (F1 : OF w1 t) by (intros d; destruct (N.eq_dec d (tn x)) as [->|Hne]; [rewrite RD; discriminate|rewrite (RO' d Hne); apply HF]).
    specialize (IH (oc_view (OC c) ox) w1 B1 C1 O1 T1 F1 (Fopen_opens F w w1 Op1 HFO) X1). rewrite RK in IH. exact (IH (Hk _) (Hok _)).
  - destruct (WFP_rw gen wck t _ o k HW) as [Hx [Hcl [_ Hk]]]. rewrite exec_prog_rw.
    destruct (B_rw o w t HB0 Hc Hx Hcl) as [xv [w1 [Eq LS]]]. rewrite Eq. cbn [bind].
    destruct (Om_leaf o t w w1 LS HB0 Hc HO HF Hcl) as [O1 [F1 T1]].
    pose proof (q3_opens w w1 (ls_q3 _ _ _ _ _ LS)) as Op1.
    pose proof (x_rw X HX A o F t w xv w1 Eq LS HB0 Hc HO Hx Hcl HXw) as X1.
    specialize (IH xv w1 (ls_B _ _ _ _ _ LS) (ls_cur _ _ _ _ _ LS) O1 (T1 _ HT) F1 (Fopen_opens F w w1 Op1 HFO) X1).
    rewrite (proj1 (ls_row _ _ _ _ _ LS)) in IH. exact (IH (Hk _) (WFO_rw ord t o k HWo _)).
Qed.

(* isnew: t had no output; then t is in F while it executes, and nothing has to be scheduled for it when it has ended *)
Lemma execute_with_X lim req a w t F (isnew : bool) : XREQ lim req -> lim t -> B a w -> live (gr w) (tn t) = true -> reach a w t ->
  Om w -> TT None w -> P3 w t -> ~ In t (queue w) -> (isnew = true -> get_task_output w t = None) ->
  Fopen F w -> X (if isnew then None else Some t) None F w ->
  okO (execute_with RC OC P req w t)
    (fun _ w1 => Om w1 /\ TT (Some t) w1 /\ Fin w1 t /\ P3 w1 t /\ X None (if isnew then None else Some t) F w1).
Proof.
  intros HR Hl HB0 Lt R HO HT HP Hq Hnew HFO HXw. rewrite execute_with_eq.
  destruct (start_B a w t HB0 Lt R) as [B2 [KT2 [Hnot HF2]]].
  assert (NC : ~ isC w t) by (intros Y; exact (HP t Y (or_introl eq_refl))).
  pose proof (Om_start gen w t (B_S _ w HB0) HO HP Hq) as O2. fold (startw w t) in O2.
  pose proof (TT_start w t HT NC Hnot) as T2. fold (startw w t) in T2.
  assert (NFt : ~ F t) by (intros Y; exact (Hnot (HFO t Y))).
  assert (FO2 : Fopen (withF isnew t F) (startw w t)) by (intros x [[_ ->]|Fx]; apply opn_start; [left; reflexivity|right; exact (HFO x Fx)]).
  pose proof (x_start X HX isnew a F w t HB0 HO HP Hnot Hnew HXw) as X2.
  pose proof (exec_prog_X lim req t HR Hl (withF isnew t F) (P t) (startw w t) B2 eq_refl O2 T2 HF2 FO2 X2) as Y. rewrite KT2 in Y.
  eapply holds_bind; [exact (Y (HWF t) (HWO t))|]. intros o w3 _ [O3 [T3 [F3 [B3 [C3 X3]]]]].
  pose proof (cur_opn _ w3 t B3 C3) as Ot3.
  fold (endw w3 t o (cur (reset_task w t))).
  split; [apply Om_end; exact O3|]. split; [apply TT_end; exact T3|]. split; [apply (Fin_end w3 t o _ B3 O3 F3 Ot3)|].
  split; [intros c Hc Rc; exact (proj1 (proj1 O3 c t Hc Rc) Ot3)|apply (x_end X HX isnew F w3 t o _ B3 O3 Ot3 F3 NFt X3)].
Qed.

Definition XMC (mc : world -> task -> outcome Z) : Prop :=
  forall F a w t, B a w -> live (gr w) (tn t) = true -> reach a w t -> Om w -> TT None w -> Fopen F w -> X None None F w ->
    okO (mc w t) (fun _ w' => Om w' /\ TT (Some t) w' /\ Fin w' t /\ X None None F w').

Lemma require_bu_with_X f : XMC (bu_make_consistent RC OC P f) -> XREQ (fun _ => True) (reqf f).
Proof.
  intros HM F w x c s _ HB0 Hc Ho Hn HO HT HF HFO HXw. destruct (BREQ f w x c s HB0 Hc Ho Hn) as [BQ RSQ]. split; [exact BQ|]. split; [exact RSQ|]. clear BQ RSQ.
  unfold reqf, require_bu_with.
  destruct (require_B _ w s x c (proj1 (fuel_facts f)) HB0 Hc Ho Hn) as [[w3 ->]|[w3 [RS [RW [B3 [C3 [R3 ->]]]]]]]; [exact Logic.I|].
  pose proof (rs_live _ _ _ _ RS) as Lt3. pose proof (q3_opens _ _ (rs_q3 _ _ _ _ RS)) as Op3.
  pose proof (cur_opn _ w s HB0 Hc) as Os.
  pose proof (reserve_Om w s x w3 HB0 Hc RS RW HO) as O3.
  pose proof (q3_TT None w w3 (rs_q3 _ _ _ _ RS) (proj1 (proj2 (rs_same _ _ _ _ RS))) HT) as TT3.
  pose proof (x_reserve X HX F s x w w3 (open_no_output _ w s HB0 Os) RS RW HXw) as X3.
  pose proof (HM F (Some s) w3 x B3 Lt3 R3 O3 TT3 (Fopen_opens F w w3 Op3 HFO) X3) as MO. pose proof (BMC f (Some s) w3 x B3 Lt3 R3) as MB.
  pose proof (proj1 (proj2 (bu_out RC OC P f)) w3 x) as MOut.
  destruct (bu_make_consistent RC OC P f w3 x) as [o w4|k w4|]; cbn [bind okO okB outIs] in *; [|exact Logic.I|exact Logic.I].
  destruct MB as [B4 [C4 [_ [_ Op4]]]]. destruct MO as [O4 [T4 [F4 X4]]].
  set (st := oc_stamp (OC c) o). set (w5 := emit w4 (ERequireEnd x c st o)). unfold recorded.
  assert (Q5 : qq w4 w5) by (apply qq_emit; reflexivity).
  assert (Os4 : opn w4 s) by (unfold opn; rewrite Op4, Op3; exact Os).
  split; [apply Om_update_mark; [exact Os4|apply (Om_qq gen w4 w5 Q5 O4)|apply (Fin_qq w4 w5 x Q5 F4)]|].
  split; [apply TT_mark; apply (TT_same (Some x) w5); [reflexivity|reflexivity|apply (TT_qq (Some x) w4 w5 Q5 T4)]|].
  apply (x_mark X HX). apply (x_update X HX F s x c o w5); [exact (open_no_output _ w4 s B4 Os4)|exact MOut|apply (x_emit X HX); [reflexivity|exact X4]].
Qed.

End Ext.

Section ExtBU.
Variable X : option task -> option task -> (task -> Prop) -> world -> Prop.
Hypothesis HX : CarriedBU X.

Definition XBU (f : nat) : Prop :=
  (forall F a w t, B a w -> live (gr w) (tn t) = true -> reach a w t -> Om w -> TT None w -> P3 w t -> ~ In t (queue w) ->
     Fopen F w -> X (Some t) None F w ->
     okO (bu_execute_and_schedule RC OC P f w t) (fun _ w' => Om w' /\ TT None w' /\ isC w' t /\ X None None F w')) /\
  XMC X (bu_make_consistent RC OC P f) /\
  (forall F a w t, B a w -> reach a w t -> Om w -> TT None w -> Fopen F w -> X None None F w ->
     okO (bu_require_scheduled_now RC OC P f w t) (fun r w' => rsnPost a t r w' /\ X None None F w')).

Theorem bottom_up_X f : XBU f.
Proof.
  induction f as [|f [IH1 [IH2 IH3]]]; [repeat split; intros; exact Logic.I|].
  assert (HR : XREQ X (fun _ => True) (reqf f)) by (apply (require_bu_with_X X (x_base X HX)); exact IH2).
  split; [|split].
  - intros F a w t HB0 Lt R HO HT HP Hq HFO HXw. rewrite bes_S. fold (reqf f).
    eapply holds_bind; [exact (execute_with_X X (x_base X HX) _ (reqf f) a w t F false HR Logic.I HB0 Lt R HO HT HP Hq ltac:(discriminate) HFO HXw)|].
    intros o w1 E [O1 [T1 [F1 [P1 X1]]]]. pose proof (holds_done (BEX f a w t HB0 Lt R) E) as YB.
    pose proof (holds_done (execute_with_out RC OC P (reqf f) w t) E) as YO. destruct (schedule_after_O a w1 t o (proj1 YB) O1 T1 F1 P1) as [O2 [T2 C2]].
    split; [exact O2|split; [exact T2|split; [exact C2|apply (x_sched X HX F w1 t o (B_S _ w1 (proj1 YB)) YO X1)]]].
  - intros F a w t HB0 Lt R HO HT HFO HXw. rewrite bmc_S. fold (reqf f).
    destruct (memN t (consistent w)) eqn:Mc.
    { destruct (get_task_output w t); cbn [okO]; [|exact Logic.I]. split; [exact HO|]. split; [apply TT_weaken; exact HT|].
      split; [intros x Rx; apply (proj1 HO t x Mc Rx)|exact HXw]. }
    destruct ((match get_task_output w t with None => true | Some _ => false end) && negb (memN t (queue w)))%bool eqn:Cond.
    + apply andb_true_iff in Cond. destruct Cond as [C1 C2]. apply negb_true_iff in C2. apply memN_false in C2.
      assert (Hno : get_task_output w t = None) by (destruct (get_task_output w t); [discriminate|reflexivity]).
      assert (HP : P3 w t).
      { intros c Hc Rc. apply (reachC_out w c t (B_S _ w HB0) (B_V _ w HB0) (proj2 (proj2 (proj2 HB0))) HO Hc Rc). exact Hno. }
      eapply holds_mono; [exact (execute_with_X X (x_base X HX) _ (reqf f) a w t F true HR Logic.I HB0 Lt R HO HT HP C2 (fun _ => Hno) HFO HXw)| |intros; exact Logic.I].
      intros o w1 _ [O1 [T1 [F1 [_ X1]]]]. split; [exact O1|split; [exact T1|split; [exact F1|exact X1]]].
    + eapply holds_bind; [exact (IH3 F a w t HB0 R HO HT HFO HXw)|]. intros r w1 E [[O1 [T1 Y]] X1].
      pose proof (holds_done (BRSN f a w t HB0 R) E) as YB. destruct r as [o|].
      * cbn [holds]. split; [exact O1|]. split; [apply TT_weaken; exact T1|]. split; [intros x Rx; apply (proj1 O1 t x Y Rx)|exact X1].
      * destruct Y as [R1 NQ]. destruct (get_task_output w1 t); cbn [holds]; [|exact Logic.I].
        split; [exact O1|]. split; [apply TT_weaken; exact T1|]. split; [|exact X1].
        intros x Rx. split; [apply (not_open_below a w1 t x); [apply YB|exact R1|exact Rx]|apply NQ; exact Rx].
  - intros F a w t HB0 R HO HT HFO HXw.
    assert (POP : forall m w1, w1 = popped w m -> In m (queue w) -> L w1 ->
              B a w1 /\ Om w1 /\ TT None w1 /\ P3 w1 m /\ ~ In m (queue w1) /\ Fopen F w1 /\ X (Some m) None F w1).
    { intros m w1 W1 Im L1. destruct (pop_O a w m w1 HB0 HO HT Im W1 L1) as [B1 [O1 [T1 [P1 NQ1]]]].
      repeat (split; [assumption|]). rewrite W1. split; [exact HFO|apply (x_pop X HX); exact HXw]. }
    destruct (rsn_cases RC OC P f a w t (proj1 HB0) R) as [Hn|w1 W1 VP1 R1 Lm1 _ Im|m w1 W1 Hmt VP1 R1 Lm1 Pm1 _ Im].
    + cbn [okO]. split; [|exact HXw]. split; [exact HO|]. split; [exact HT|]. split; [exact R|exact Hn].
    + destruct (POP t w1 W1 Im (proj1 (proj1 VP1))) as [B1 [O1 [T1 [P1 [NQ1 [FO1 X1]]]]]].
      eapply holds_bind; [exact (IH1 F a w1 t B1 Lm1 R1 O1 T1 P1 NQ1 FO1 X1)|]. intros o w2 _ [O2 [T2 [C2 X2]]]. split; [split; [exact O2|split; assumption]|exact X2].
    + (* a dependency m of t was popped: it runs under the anchor t, then the search goes on *)
      destruct (POP m w1 W1 Im (proj1 (proj1 VP1))) as [B1 [O1 [T1 [P1 [NQ1 [FO1 X1]]]]]].
      assert (PS : B (Some t) w1) by exact (conj (VPre_strengthen a t w1 (proj1 B1) R1) (proj2 B1)).
      assert (RS : reach (Some t) w1 m) by (intros c Hc; inversion Hc; subst c; exact Pm1).
      eapply holds_bind; [exact (IH1 F (Some t) w1 m PS Lm1 RS O1 T1 P1 NQ1 FO1 X1)|]. intros o w2 Eb [O2 [T2 [_ X2]]].
      pose proof (holds_done (BES f (Some t) w1 m PS Lm1 RS) Eb) as YB.
      destruct (bes_pre2 RC OC P f a t w1 m o w2 (proj1 B1) R1 Lm1 Pm1 Eb) as [VP2 [R2 _]].
      apply (IH3 F a w2 t (conj VP2 (proj2 (proj1 YB))) R2 O2 T2 (Fopen_opens F w1 w2 (proj2 (proj2 (proj2 (proj2 YB)))) FO1) X2).
Qed.

Theorem execute_scheduled_X f : forall F w, B None w -> Om w -> TT None w -> Fopen F w -> X None None F w ->
  okO (execute_scheduled RC OC P f w) (fun _ w' => B None w' /\ Om w' /\ TT None w' /\ X None None F w' /\ queue w' = []).
Proof.
  induction f as [|f IH]; intros F w HB0 HO HT HFO HXw; [exact Logic.I|]. rewrite es_S.
  destruct (queue_pop w) as [[t w1]|] eqn:Ep.
  2:{ cbn [okO]. split; [exact HB0|]. split; [exact HO|]. split; [exact HT|]. split; [exact HXw|exact (queue_pop_none w Ep)]. }
  destruct (queue_pop_max w t w1 Ep) as [Im [_ [_ [G1 _]]]].
  destruct (queue_pop_V w t w1 (proj1 HB0) Ep) as [W1 [Lt1 VP1]].
  destruct (pop_O None w t w1 HB0 HO HT Im W1 (proj1 (proj1 VP1))) as [B1 [O1 [T1 [P1 NQ1]]]].
  assert (FO1 : Fopen F w1) by (rewrite W1; exact HFO).
  assert (X1 : X (Some t) None F w1) by (rewrite W1; apply (x_pop X HX); exact HXw).
  assert (R1 : reach None w1 t) by (intros c Hc; discriminate).
  eapply holds_bind; [exact (proj1 (bottom_up_X f) F None w1 t B1 Lt1 R1 O1 T1 P1 NQ1 FO1 X1)|]. intros o w2 E [O2 [T2 [_ X2]]].
  pose proof (holds_done (BES f None w1 t B1 Lt1 R1) E) as YB.
  apply IH; [apply YB|exact O2|exact T2|exact (Fopen_opens F w1 w2 (proj2 (proj2 (proj2 (proj2 YB)))) FO1)|exact X2].
Qed.

Theorem session_bottom_up_X fuel w ch F : SB w ->
  let w2 := emit (set_cur (fold_left (schedule_tasks_affected_by RC) ch (set_queue w [])) None) EBuildStart in
  Om w2 -> TT None w2 -> Fopen F w2 -> X None None F w2 ->
  match session_bottom_up RC OC P fuel w ch with
  | Done _ w' => exists w3, w' = emit w3 EBuildEnd /\ B None w3 /\ Om w3 /\ TT None w3 /\ X None None F w3 /\ queue w3 = []
  | Abort _ _ => False
  | OutOfFuel => True
  end.
Proof.
  intros [[VSw [Kw Qw]] Hhw] w2 O2 T2 FO2 X2.
  pose proof (session_bottom_up_A gen wck ord RC OC P sf HS HWF HWO fuel w ch VSw Kw Qw) as NA.
  destruct (bottom_up_start w ch VSw Kw Qw Hhw) as [_ [_ [_ B2]]].
  unfold session_bottom_up in *. cbv zeta in *. fold w2 in NA, B2 |- *.
  pose proof (execute_scheduled_X fuel F w2 B2 O2 T2 FO2 X2) as Y.
  destruct (execute_scheduled RC OC P fuel w2) as [u w3|k w3|]; cbn [bind okO okA] in *; [|exact NA|exact Logic.I].
  exists w3. split; [reflexivity|exact Y].
Qed.
End ExtBU.

Variable always : ocid.

Lemma HB_ses {A} HI (m : outcome A) : sesA (fun w => Hinv w /\ K w /\ Q w) (fun w => VS w /\ K w /\ Q w) (fun _ => False) m -> okH m ->
  sesA HI SB (fun _ => False) m.
Proof. destruct m; cbn [sesA okH]; [intros X Y; split; assumption|intros [[] _]|trivial]. Qed.
Lemma session_require_SB HI fuel w t : SB w -> sesA HI SB (fun _ => False) (session_require RC OC P always fuel w t).
Proof.
  intros [[Vv [Kv Qv]] Hv]. apply HB_ses; [|apply session_require_H; [apply Vv|exact Hv]].
  apply okA_ses; [apply session_require_V; exact Vv|apply (session_require_KA RC OC P sf HS HNR); assumption|apply (session_require_A gen wck ord RC OC P sf HS HWF HWO); assumption].
Qed.
Lemma session_bottom_up_SB HI fuel w ch : SB w -> sesA HI SB (fun _ => False) (session_bottom_up RC OC P fuel w ch).
Proof.
  intros [[Vv [Kv Qv]] Hv]. apply HB_ses; [|apply session_bottom_up_H; [apply Vv|exact Hv]].
  apply okA_ses; [apply session_bottom_up_V; exact Vv|apply (session_bottom_up_KA RC OC P sf HS HNR); assumption|apply (session_bottom_up_A gen wck ord RC OC P sf HS HWF HWO); assumption].
Qed.
Lemma run_session_SB fuel ops w : SB w -> SB (snd (run_session RC OC P always fuel w ops)).
Proof. intros Hw. apply (run_session_any RC OC P always SB SB (fun _ => False) (fun _ X => X) (session_require_SB SB) (session_bottom_up_SB SB) fuel ops w Hw). Qed.
Lemma run_session_HB fuel ops : forall w, VS w -> K w -> Q w -> HB w ->
  HB (snd (run_session RC OC P always fuel w ops)) /\ opens (trace (snd (run_session RC OC P always fuel w ops))) = [].
Proof.
  intros w Hw Kw Hq Hh. destruct (run_session_SB fuel ops w (conj (conj Hw (conj Kw Hq)) Hh)) as [[V' _] H'].
  split; [exact H'|apply VS_opens; exact V'].
Qed.

Theorem run_history_HBs fuel h : forall w, Hinv w -> K w -> Q w -> Full w ->
  Hinv (snd (run_history RC OC P always fuel w h)) /\ K (snd (run_history RC OC P always fuel w h)) /\
  Q (snd (run_history RC OC P always fuel w h)) /\ HBs (snd (run_history RC OC P always fuel w h)).
Proof.
  intros w Hw Kw Hq Hf. destruct (run_history_VQA gen wck ord RC OC P sf HS HWF HWO always fuel h w (conj Hw (conj Kw Hq))) as [NA [H1 [K1 Q1]]].
  split; [exact H1|split; [exact K1|split; [exact Q1|]]]. apply Full_HBs; [apply H1|].
  apply (full_outputs_any_history RC OC P always fuel h w (proj1 Hw) Hf).
  eapply Forall_impl; [|exact NA]. intros l Hl. eapply Forall_impl; [|exact Hl]. intros r Hr k E. subst r. exact Hr.
Qed.

Lemma new_session_SB w : Hinv w -> K w -> Q w -> HBs w -> SB (new_session w).
Proof.
  intros Jw Kw Qw Hw. split; [split; [apply VS_new_session; exact Jw|split]|apply HBs_new_session; exact Hw].
  - apply (geq_K RC OC P sf w); [apply geq_same; reflexivity|reflexivity|exact Kw].
  - apply (Q_same gen ord w); [reflexivity|exact Qw].
Qed.
Lemma history_SB fuel h : SB (new_session (snd (run_history RC OC P always fuel init_world h))).
Proof.
  destruct (run_history_HBs fuel h init_world) as [Jw [Kw [Qw Hw]]]; [apply Hinv_init|apply K_init|apply Q_init|apply Full_init|].
  apply new_session_SB; assumption.
Qed.

Theorem bottom_up_new_session X (HX : CarriedBU X) fuel w ch : SB w -> consistent w = [] -> trace w = [] ->
  let w2 := emit (set_cur (fold_left (schedule_tasks_affected_by RC) ch (set_queue w [])) None) EBuildStart in
  X None None (fun _ => False) w2 ->
  match session_bottom_up RC OC P fuel w ch with
  | Done _ w' => exists w3, w' = emit w3 EBuildEnd /\ B None w3 /\ Om w3 /\ TT None w3 /\ X None None (fun _ => False) w3 /\ queue w3 = []
  | Abort _ _ => False
  | OutOfFuel => True
  end.
Proof.
  intros SBw Cs Tr w2 X2. pose proof SBw as [[VSw [Kw Qw]] Hhw].
  destruct (bottom_up_start w ch VSw Kw Qw Hhw) as [_ [_ [LV _]]].
  apply (session_bottom_up_X X HX fuel w ch (fun _ => False) SBw); [| |intros _ []|exact X2].
  - apply (start_Om _ _ LV); [cbn; rewrite Tr; reflexivity|]. intros c x Hc. unfold isC in Hc. cbn in Hc. rewrite Cs in Hc. discriminate.
  - apply (lv_TT None _ _ LV). unfold TT. cbn. rewrite Tr. split; [constructor|intros x []].
Qed.

(* C04, at most once: in the static class, the bottom-up build that opens a session after ANY history executes no task twice
   (and does not abort) *)
Theorem bottom_up_at_most_once fuel h ch :
  let w := new_session (snd (run_history RC OC P always fuel init_world h)) in
  match session_bottom_up RC OC P fuel w ch with
  | Done _ w' => NoDup (execs (trace w'))
  | Abort _ _ => False
  | OutOfFuel => True
  end.
Proof.
  intros w. eapply holds_mono; [exact (bottom_up_new_session _ carried_True fuel w ch (history_SB fuel h) eq_refl eq_refl Logic.I)| |intros k w' _ []].
  intros u w' _ [w3 [-> [_ [_ [T3 _]]]]]. exact (proj1 T3).
Qed.
End ON.