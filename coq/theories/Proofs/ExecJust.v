(* C02 / C04 / C09, global form of "every execution is justified", for EVERY session (top-down requires and bottom-up builds in
   any mix, completed or aborted, from any store, for all programs and checkers).  In the event stream of the session, the start
   of an execution of t
     - comes directly after the end of a top-down dependency check whose checker did NOT say "consistent" (validation of t's
       recorded dependencies failed: TdForward.v shows the started task is the owner), or
     - t was scheduled earlier in the session (bottom-up; by SJ a scheduling comes directly after a check of t that did not say
       "consistent"), or
     - t had no output when the session began (it never completed before), or
     - an execution of t started earlier in this session (a task without output because it is executing: ruled out by C07).
   Contrapositive: a task that completed before and none of whose dependency checks reports an inconsistency is never executed;
   a dependency whose checker reports consistency never causes re-execution.
   Read off the language of session streams (TdForward.sguard) at an execution start and at a scheduling. *)
From Coq Require Import List NArith ZArith Bool.
From PieV Require Import Model.Build Proofs.BuJust Proofs.TdForward.
Notation failing := TdForward.failing.
Import ListNotations.
Open Scope N_scope.

Definition head_failing (tr : list event) : Prop := match tr with e :: _ => failing e = true | [] => False end.

Lemma S_start_spec o0 seg : Lang (sguard o0 []) seg -> forall post t pre, seg = post ++ EExecStart t :: pre ->
  head_failing pre \/ In (ESchedTask t) pre \/ alookup o0 t = None \/ In (EExecStart t) pre.
Proof.
  intros L post t pre ->. pose proof (Lang_split _ _ _ _ L) as G. cbn in G.
  assert (K : headok pre -> In (ESchedTask t) pre \/ alookup o0 t = None \/ In (EExecStart t) pre).
  { intros H. destruct (G H) as [[]|[Y|Y]]; [left; exact Y|right; apply out_of_none; exact Y]. }
  destruct pre as [|f pre']; [right; apply K; exact I|]. cbn. destruct (failing f) eqn:F; [left; reflexivity|right; apply K; exact F].
Qed.
Lemma SJ_spec tr : SJ tr -> forall post t pre, tr = post ++ ESchedTask t :: pre -> exists e pre', pre = e :: pre' /\ incons_end t e.
Proof.
  intros H post. revert tr H. induction post as [|e post IH]; intros tr H t pre E0; subst tr; cbn [app] in H.
  - destruct H as [H _]. destruct pre as [|e pre']; [contradiction|]. exists e, pre'. split; [reflexivity|exact H].
  - apply (IH (post ++ ESchedTask t :: pre)); [|reflexivity]. destruct e; cbn in H; try exact H. apply H.
Qed.
Lemma S_just_spec w w' : Sess (new_session w) w' ->
  (forall post t pre, trace w' = post ++ EExecStart t :: pre ->
     head_failing pre \/ In (ESchedTask t) pre \/ get_task_output w t = None \/ In (EExecStart t) pre) /\
  (forall post t pre, trace w' = post ++ ESchedTask t :: pre -> exists e pre', pre = e :: pre' /\ incons_end t e).
Proof.
  intros [seg [[[A1 _] _ A4] _]]. cbn in A1. rewrite app_nil_r in A1. rewrite A1. split; [apply S_start_spec; exact A4|].
  apply SJ_spec, (Lang_SJ (sguard (outs w) [])); [intros t pre G; exact G|exact A4].
Qed.

Section Top.
Variable RC : rcid -> rchecker.
Variable OC : ocid -> ochecker.
Variable P : task -> prog.
Variable always : ocid.

Lemma check_deps_false_head mc ds w w' : check_deps RC OC mc ds w = Done false w' -> head_failing (trace w').
Proof.
  intros H. destruct (Justify.check_deps_false RC OC mc ds w w' H) as [d [e [_ [F T]]]].
  destruct (trace w'); [discriminate|]. injection T as ->. exact (failed_failing d e F).
Qed.

(* events newest first: [pre] is what happened before *)
Theorem session_executions_justified fuel w ops :
  let tr := trace (snd (run_session RC OC P always fuel (new_session w) ops)) in
  (forall post t pre, tr = post ++ EExecStart t :: pre ->
     head_failing pre \/ In (ESchedTask t) pre \/ get_task_output w t = None \/ In (EExecStart t) pre) /\
  (forall post t pre, tr = post ++ ESchedTask t :: pre -> exists e pre', pre = e :: pre' /\ incons_end t e).
Proof.
  apply S_just_spec, session_lang.
Qed.

Corollary consistent_checks_never_execute fuel w ops t o :
  get_task_output w t = Some o ->
  let tr := trace (snd (run_session RC OC P always fuel (new_session w) ops)) in
  (forall e, In e tr -> failing e = false) ->
  (forall e t', In e tr -> ~ incons_end t' e) ->
  ~ In (EExecStart t) tr.
Proof.
  intros Ho tr NF NI. destruct (session_executions_justified fuel w ops) as [X Sess]. fold tr in X, Sess.
  assert (NS : forall t', ~ In (ESchedTask t') tr).
  { intros t' Hin. apply in_split in Hin. destruct Hin as [post [pre E0]]. destruct (Sess post t' pre E0) as [e [pre' [-> Hi]]].
    apply (NI e t'); [|exact Hi]. rewrite E0. apply in_or_app. right. right. left. reflexivity. }
  (* the OLDEST start of t *)
  assert (G : forall pre post, tr = post ++ pre -> ~ In (EExecStart t) pre).
  { induction pre as [|e pre IH]; intros post E0 Hin; [contradiction|].
    assert (E1 : tr = (post ++ [e]) ++ pre) by (rewrite <- app_assoc; exact E0).
    destruct Hin as [->|Hin]; [|exact (IH _ E1 Hin)].
    destruct (X post t pre E0) as [Y|[Y|[Y|Y]]].
    - destruct pre as [|f pre']; [contradiction|]. cbn in Y. rewrite NF in Y; [discriminate|]. rewrite E0. apply in_or_app. right. right. left. reflexivity.
    - apply (NS t). rewrite E0. apply in_or_app. right. right. exact Y.
    - congruence.
    - exact (IH _ E1 Y). }
  apply (G tr []). reflexivity.
Qed.

End Top.
