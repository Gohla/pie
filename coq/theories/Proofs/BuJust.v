(* The event streams a bottom-up build can emit, as a language of newest-first words (Lang): in a build from any store,
   completed or aborted, for all programs and checkers, the queue, the task outputs and the reported errors are functions of
   the segment emitted so far (pend; follows: out_of, raised).  B_kept makes this an instance of InvE.Kept; the rest is about
   words.  C04, "only affected tasks run": every execution is of a task scheduled in this build or without output when the
   build started, and every scheduling comes directly after a check of the scheduled task that did not say "consistent" (SJ);
   so a task with an output none of whose dependency checks reports inconsistency is not executed.  C03, the converse: a
   build that completes has executed every task it scheduled, after scheduling it.  C04, at most once: BuOnce.v. *)
From Coq Require Import List NArith ZArith Bool.
From PieV Require Import Model.Build Proofs.Steps Proofs.Local Proofs.Queue Proofs.InvE.
Import ListNotations.
Open Scope N_scope.

Definition plain (e : event) : bool := match e with ESchedTask _ | EExecStart _ => false | _ => true end.
Definition incons_end (t : task) (e : event) : Prop :=
  match e with
  | ECheckReadResEnd t' _ _ x => t' = t /\ x <> Consistent
  | ECheckReqTaskEnd t' _ _ b => t' = t /\ b = true
  | _ => False
  end.
Fixpoint SJ (tr : list event) : Prop :=
  match tr with
  | [] => True
  | ESchedTask t :: rest => match rest with e :: _ => incons_end t e | [] => False end /\ SJ rest
  | _ :: rest => SJ rest
  end.

Lemma SJ_plain e tr : plain e = true -> SJ tr -> SJ (e :: tr).
Proof. destruct e; cbn; try discriminate; intros _ H; exact H. Qed.
Lemma SJ_start t tr : SJ tr -> SJ (EExecStart t :: tr). Proof. intros H. exact H. Qed.

(* for the queue and the outputs an event is a scheduling, the start or the end of an execution, or none of these *)
Inductive ekind := KSched (t : task) | KStart (t : task) | KEnd (t : task) (o : Z) | KOther.
Definition kind (e : event) : ekind :=
  match e with ESchedTask t => KSched t | EExecStart t => KStart t | EExecEnd t o => KEnd t o | _ => KOther end.
Lemma kind_spec e :
  match kind e with KSched t => e = ESchedTask t | KStart t => e = EExecStart t | KEnd t o => e = EExecEnd t o | KOther => True end.
Proof. destruct e; reflexivity. Qed.
Lemma calm_other e : calm e = true -> kind e = KOther. Proof. destruct e; try reflexivity; discriminate. Qed.
(* the checker error an event carries (ErrRep.errev, as a list) *)
Definition raised (e : event) : list Z :=
  match e with ECheckResEnd _ _ _ (CErr x) | ECheckReadResEnd _ _ _ (CErr x) => [x] | _ => [] end.
Lemma calm_raised e : calm e = true -> raised e = []. Proof. destruct e; try reflexivity; destruct result; try reflexivity; discriminate. Qed.

Section Lang.
Variable G : event -> list event -> Prop.
Fixpoint Lang (seg : list event) : Prop :=
  match seg with [] => True | e :: pre => G e pre /\ Lang pre end.
Lemma Lang_split post e pre : Lang (post ++ e :: pre) -> G e pre.
Proof. induction post as [|x post IH]; intros [H L]; [exact H|exact (IH L)]. Qed.
Lemma Lang_SJ seg : (forall t pre, G (ESchedTask t) pre -> match pre with f :: _ => incons_end t f | [] => False end) -> Lang seg -> SJ seg.
Proof.
  intros HG. induction seg as [|e pre IH]; [trivial|]. intros [H L]. destruct e; cbn [SJ]; try (apply IH; exact L).
  split; [apply HG; exact H|apply IH; exact L].
Qed.
End Lang.

Section Words.
Variable o0 : list (task * Z).       (* the task outputs when the build started *)

Fixpoint out_of (seg : list event) (t : task) : option Z :=
  match seg with
  | [] => alookup o0 t
  | e :: r => match kind e with
              | KStart x => if N.eqb x t then None else out_of r t
              | KEnd x o => if N.eqb x t then Some o else out_of r t
              | _ => out_of r t
              end
  end.
Fixpoint pend (seg : list event) (t : task) : Prop :=
  match seg with
  | [] => False
  | e :: r => match kind e with KSched x => x = t \/ pend r t | KStart x => pend r t /\ t <> x | _ => pend r t end
  end.
Definition guard (e : event) (pre : list event) : Prop :=
  match kind e with
  | KSched t => match pre with f :: _ => incons_end t f | [] => False end
  | KStart t => pend pre t \/ out_of pre t = None
  | _ => True
  end.

Lemma other_word e seg : kind e = KOther ->
  (forall t, pend (e :: seg) t = pend seg t) /\ (forall t, out_of (e :: seg) t = out_of seg t) /\ guard e seg.
Proof. intros H. unfold guard. cbn [pend out_of]. rewrite H. repeat split. Qed.

Lemma pend_sched seg t : pend seg t -> In (ESchedTask t) seg.
Proof.
  induction seg as [|e pre IH]; [intros []|]. cbn [pend]. pose proof (kind_spec e) as K.
  destruct (kind e) as [x|x|x o|]; intros H; try (right; apply IH; exact H).
  - destruct H as [->|H]; [left; exact K|right; apply IH; exact H].
  - right. apply IH, H.
Qed.
Lemma out_of_none seg t : out_of seg t = None -> alookup o0 t = None \/ In (EExecStart t) seg.
Proof.
  induction seg as [|e pre IH]; [intros H; left; exact H|].
  assert (K : out_of pre t = None -> alookup o0 t = None \/ In (EExecStart t) (e :: pre))
    by (intros H; destruct (IH H) as [Y|Y]; [left; exact Y|right; right; exact Y]).
  cbn [out_of]. pose proof (kind_spec e) as E. destruct (kind e) as [x|x|x o|]; try exact K;
    destruct (N.eqb_spec x t) as [->|_]; try exact K; [intros _; right; left; exact E|discriminate].
Qed.
(* a start of t that finds t without output because an earlier execution in the segment dropped it is justified by what
   justified that one *)
Lemma Lang_justified seg : Lang guard seg -> forall t, In (EExecStart t) seg -> In (ESchedTask t) seg \/ alookup o0 t = None.
Proof.
  induction seg as [|e pre IH]; [intros _ t []|]. intros [G L] t H.
  assert (K : In (EExecStart t) pre -> In (ESchedTask t) (e :: pre) \/ alookup o0 t = None)
    by (intros Y; destruct (IH L t Y) as [Z|Z]; [left; right; exact Z|right; exact Z]).
  destruct H as [->|H]; [|exact (K H)].
  destruct G as [G|G]; [left; right; apply pend_sched; exact G|]. destruct (out_of_none pre t G) as [Y|Y]; [right; exact Y|exact (K Y)].
Qed.
Lemma pend_app pre t post : ~ In (EExecStart t) pre -> pend (pre ++ ESchedTask t :: post) t.
Proof.
  induction pre as [|e pre IH]; intros N; cbn [app pend]; [left; reflexivity|].
  specialize (IH (fun X => N (or_intror X))). pose proof (kind_spec e) as K. destruct (kind e) as [x|x|x o|]; try exact IH.
  - right. exact IH.
  - split; [exact IH|intros ->; apply N; left; exact K].
Qed.
(* where t starts a second time: pending means scheduled since the first start, no output means that the first has not ended *)
Lemma pend_since b t c : pend (b ++ EExecStart t :: c) t -> In (ESchedTask t) b.
Proof.
  induction b as [|e b IH]; cbn [app pend]; [intros [_ H]; destruct (H eq_refl)|]. pose proof (kind_spec e) as K.
  destruct (kind e) as [x|x|x o|]; intros H; try (right; apply IH; exact H).
  - destruct H as [->|H]; [left; exact K|right; apply IH; exact H].
  - right. apply IH, H.
Qed.
Lemma out_of_since b t c : ~ In (EExecStart t) b -> out_of (b ++ EExecStart t :: c) t = None -> ~ exists o, In (EExecEnd t o) b.
Proof.
  induction b as [|e b IH]; intros N H [o X]; [destruct X|]. cbn [app] in H.
  destruct X as [->|X]; [cbn [out_of kind] in H; rewrite N.eqb_refl in H; discriminate|].
  apply (IH (fun Y => N (or_intror Y))); [|exists o; exact X]. cbn [out_of] in H. pose proof (kind_spec e) as K.
  destruct (kind e) as [x|x|x o'|]; try exact H; destruct (N.eqb_spec x t) as [E|_]; try exact H; [subst x; destruct (N (or_introl K))|discriminate].
Qed.

End Words.

Section Build.
Variable w0 : world.                 (* the world in which the segment began *)

Definition follows (w : world) (seg : list event) : Prop :=
  trace w = seg ++ trace w0 /\ (forall t, get_task_output w t = out_of (outs w0) seg t) /\ errs w = flat_map raised seg ++ errs w0.
Lemma follows_same w w' seg : trace w' = trace w -> outs w' = outs w -> errs w' = errs w -> follows w seg -> follows w' seg.
Proof. intros T O E [A1 [A2 A3]]. split; [rewrite T; exact A1|split; [|rewrite E; exact A3]]. intros t. unfold get_task_output. rewrite O. apply A2. Qed.
Lemma follows_other w w' e seg : (forall t, out_of (outs w0) (e :: seg) t = out_of (outs w0) seg t) ->
  trace w' = e :: trace w -> outs w' = outs w -> errs w' = raised e ++ errs w -> follows w seg -> follows w' (e :: seg).
Proof.
  intros K T O E [A1 [A2 A3]]. split; [rewrite T, A1; reflexivity|split; [|rewrite E, A3; apply app_assoc]].
  intros t. unfold get_task_output. rewrite O, K. apply A2.
Qed.
Lemma follows_start w t seg : follows w seg -> follows (startw w t) (EExecStart t :: seg).
Proof.
  intros [A1 [A2 A3]]. split; [cbn; rewrite A1; reflexivity|split; [|exact A3]].
  intros x. change (get_task_output (reset_task w t) x = out_of (outs w0) (EExecStart t :: seg) x). rewrite output_reset, N.eqb_sym. cbn [out_of kind].
  destruct (N.eqb t x); [reflexivity|apply A2].
Qed.
Lemma follows_end w t o c seg : follows w seg -> follows (endw w t o c) (EExecEnd t o :: seg).
Proof.
  intros [A1 [A2 A3]]. split; [cbn; rewrite A1; reflexivity|split; [|exact A3]].
  intros x. change (get_task_output (set_task_output w t o) x = out_of (outs w0) (EExecEnd t o :: seg) x). rewrite output_set, N.eqb_sym. cbn [out_of kind].
  destruct (N.eqb t x); [reflexivity|apply A2].
Qed.

Record Bseg (w : world) (seg : list event) (qd : task -> Prop) : Prop := mkB {
  b_w : follows w seg;
  b_q : forall t, In t (queue w) <-> qd t;
  b_lang : Lang (guard (outs w0)) seg
}.
Definition B (w : world) : Prop := exists seg, Bseg w seg (pend seg).
(* where execute_with is called: t has left the queue, if it was in it, and its start may come *)
Definition BX (w : world) (t : task) : Prop :=
  exists seg, Bseg w seg (pend (EExecStart t :: seg)) /\ guard (outs w0) (EExecStart t) seg.

Lemma sched_B w w2 t e :
  B w -> kind e = KOther -> incons_end t e -> trace w2 = e :: trace w -> queue w2 = queue w -> outs w2 = outs w ->
  errs w2 = raised e ++ errs w -> B (queue_add (emit w2 (ESchedTask t)) t).
Proof.
  intros [seg [A1 A3 A4]] Pe He T Q O E. destruct (other_word (outs w0) e seg Pe) as [Pn [On Ge]].
  destruct (queue_add_fields (emit w2 (ESchedTask t)) t) as [TQ [OQ [EQ QQ]]]. exists (ESchedTask t :: e :: seg). constructor.
  - apply (follows_other w2); [reflexivity|exact TQ|exact OQ|exact EQ|]. apply (follows_other w); [exact On|exact T|exact O|exact E|exact A1].
  - intros x. rewrite QQ. change (In x (queue w2) \/ x = t <-> t = x \/ pend (e :: seg) x). rewrite Q, Pn, A3.
    split; intros [H|H]; [right; exact H|left; symmetry; exact H|right; symmetry; exact H|left; exact H].
  - split; [exact He|split; [exact Ge|exact A4]].
Qed.

Theorem B_kept : Kept B BX.
Proof.
  constructor.
  - intros w w' [T [Q [O E]]] [seg [A1 A3 A4]]. exists seg. constructor; [exact (follows_same w w' seg T O E A1)| |exact A4].
    intros t. rewrite Q. apply A3.
  - intros w e He [seg [A1 A3 A4]]. destruct (other_word (outs w0) e seg (calm_other e He)) as [Pe [Oe Ge]].
    exists (e :: seg). constructor; [apply (follows_other w); [exact Oe|reflexivity..|rewrite (calm_raised e He); reflexivity|exact A1]| |split; assumption].
    intros t. rewrite Pe. apply A3.
  - intros w t [seg [[A1 A3 A4] G]]. exists (EExecStart t :: seg). constructor; [apply follows_start; exact A1|exact A3|split; assumption].
  - intros w t o c [seg [A1 A3 A4]]. exists (EExecEnd t o :: seg). constructor; [apply follows_end; exact A1|exact A3|split; [exact Logic.I|exact A4]].
  - intros w t c st x Hx Hw. apply (sched_B w _ t (ECheckReadResEnd t c st x)); [exact Hw|reflexivity|split; [reflexivity|exact Hx]|destruct x; reflexivity..].
  - intros w t c st Hw. apply (sched_B w _ t (ECheckReqTaskEnd t c st true)); [exact Hw|reflexivity|split; reflexivity|reflexivity..].
  - intros w t [seg [A1 A3 A4]] Hin. exists seg. split; [constructor; [exact A1| |exact A4]|left; apply A3; exact Hin].
    intros x. rewrite popped_queue, A3. reflexivity.
  - intros w t [seg [A1 A3 A4]] Ho Hq. exists seg. split; [constructor; [exact A1| |exact A4]|right; rewrite <- (proj1 (proj2 A1)); exact Ho].
    intros x. cbn [pend kind]. rewrite <- A3. split; [intros H; split; [exact H|intros ->; exact (Hq H)]|intros [H _]; exact H].
Qed.

End Build.


Lemma In_start_dec t l : {In (EExecStart t) l} + {~ In (EExecStart t) l}.
Proof.
  induction l as [|e l [H|H]]; [right; intros []|left; right; exact H|].
  destruct e; try (right; intros [Y|Y]; [discriminate|exact (H Y)]).
  destruct (N.eq_dec t0 t) as [->|N]; [left; left; reflexivity|right; intros [Y|Y]; [inversion Y; congruence|exact (H Y)]].
Qed.
Lemma execute_scheduled_empties RC OC P fuel : forall w u w', execute_scheduled RC OC P fuel w = Done u w' -> queue w' = [].
Proof.
  induction fuel as [|f IH]; intros w u w'; cbn [execute_scheduled]; [discriminate|].
  destruct (queue_pop w) as [[t w1]|] eqn:E.
  - destruct (bu_execute_and_schedule RC OC P f w1 t) as [o w2|k w2|]; cbn [bind]; [apply IH|discriminate..].
  - intros H. inversion H; subst w'. exact (queue_pop_none w E).
Qed.


Section Top.
Variable RC : rcid -> rchecker.
Variable OC : ocid -> ochecker.
Variable P : task -> prog.

Theorem bottom_up_lang fuel w ch :
  match session_bottom_up RC OC P fuel w ch with Done _ w' | Abort _ w' => B w w' | OutOfFuel => True end.
Proof.
  apply (kept_session_bottom_up RC OC P _ _ (B_kept w)). exists []. constructor; [repeat split|intros t; split; intros []|exact Logic.I].
Qed.

Theorem bottom_up_executions_justified fuel w ch :
  match session_bottom_up RC OC P fuel w ch with
  | Done _ w' | Abort _ w' =>
    exists seg, trace w' = seg ++ trace w /\
      (forall t, In (EExecStart t) seg -> In (ESchedTask t) seg \/ get_task_output w t = None) /\
      SJ seg
  | OutOfFuel => True
  end.
Proof.
  pose proof (bottom_up_lang fuel w ch) as H.
  destruct (session_bottom_up RC OC P fuel w ch) as [u w'|k w'|]; [| |exact Logic.I];
    destruct H as [seg [[A1 _] _ A4]]; exists seg; (split; [exact A1|]); (split; [apply Lang_justified; exact A4|apply (Lang_SJ (guard (outs w))); [intros t pre G; exact G|exact A4]]).
Qed.

Corollary unaffected_not_executed fuel w ch t o :
  get_task_output w t = Some o ->
  match session_bottom_up RC OC P fuel w ch with
  | Done _ w' | Abort _ w' =>
    exists seg, trace w' = seg ++ trace w /\ (~ In (ESchedTask t) seg -> ~ In (EExecStart t) seg)
  | OutOfFuel => True
  end.
Proof.
  intros Ho. pose proof (bottom_up_executions_justified fuel w ch) as X.
  destruct (session_bottom_up RC OC P fuel w ch) as [u w'|k w'|]; [| |exact Logic.I];
    destruct X as [seg [A1 [A2 _]]]; exists seg; (split; [exact A1|]); intros NS HX; destruct (A2 t HX) as [Y|Y]; congruence.
Qed.

Theorem bottom_up_executes_all_scheduled fuel w ch u w' :
  session_bottom_up RC OC P fuel w ch = Done u w' ->
  exists seg, trace w' = seg ++ trace w /\
    forall t pre post, seg = pre ++ ESchedTask t :: post -> In (EExecStart t) pre.
Proof.
  intros Hd. pose proof (bottom_up_lang fuel w ch) as H. rewrite Hd in H. destruct H as [seg [[A1 _] A3 _]].
  assert (Q : queue w' = []).
  { unfold session_bottom_up in Hd. cbv zeta in Hd. apply bind_done in Hd as (x & w3 & E & Hd).
    inversion Hd; subst w'. exact (execute_scheduled_empties RC OC P fuel _ _ _ E). }
  exists seg. split; [exact A1|]. intros t pre post E.
  destruct (In_start_dec t pre) as [Y|Y]; [exact Y|exfalso]. subst seg. apply (pend_app pre t post), A3 in Y. rewrite Q in Y. exact Y.
Qed.

End Top.
